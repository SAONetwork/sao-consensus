(* C11 (retention and expiry), C12 (timeout progress), C13 (links created by Store):
   what the handlers and the end-blocker of x/sao do to the two schedules
   [timeouts] (height -> order ids) and [expshards] (height -> shard ids). *)
From SaoVerif Require Import Base.Prelude Base.Ints Base.Dec Model.Did Model.Types Model.Monad Model.Bank Model.Select
     Model.Node Model.Storage Model.Sao Model.Hooks Model.App Model.Spec Proofs.SelectFacts Proofs.Outcome.
From RecordUpdate Require Import RecordUpdate.
Import RecordSetNotations.

(** * Reasoning about the outcome monad *)

(** ** frames *)
Definition keeps {A B} (f : State -> B) (m : M A) : Prop :=
  forall s, match m s with Ok _ s' => f s' = f s | Err _ s' => f s' = f s | _ => True end.

Lemma keeps_ok {A B} (f : State -> B) (m : M A) s a s' : keeps f m -> m s = Ok a s' -> f s' = f s.
Proof. intros K E. specialize (K s). rewrite E in K. exact K. Qed.
Lemma keeps_err {A B} (f : State -> B) (m : M A) s e s' : keeps f m -> m s = Err e s' -> f s' = f s.
Proof. intros K E. specialize (K s). rewrite E in K. exact K. Qed.

Lemma keeps_ret {A B} (f : State -> B) (a : A) : keeps f (ret a).
Proof. intros s. reflexivity. Qed.
Lemma keeps_fail {A B} (f : State -> B) e : keeps f (@fail A e).
Proof. intros s. reflexivity. Qed.
Lemma keeps_panic {A B} (f : State -> B) e : keeps f (@panic A e).
Proof. intros s. exact I. Qed.
Lemma keeps_hang {A B} (f : State -> B) : keeps f (fun _ => @Hang A).
Proof. intros s. exact I. Qed.
Lemma keeps_get {B} (f : State -> B) : keeps f get.
Proof. intros s. reflexivity. Qed.
Lemma keeps_gets {A B} (f : State -> B) (g : State -> A) : keeps f (gets g).
Proof. intros s. reflexivity. Qed.
Lemma keeps_modify {B} (f : State -> B) g : (forall s, f (g s) = f s) -> keeps f (modify g).
Proof. intros H s. apply H. Qed.
Lemma keeps_bind {A C B} (f : State -> B) (m : M A) (k : A -> M C) :
  keeps f m -> (forall a, keeps f (k a)) -> keeps f (bind m k).
Proof.
  intros Km Kk s. unfold bind. specialize (Km s). destruct (m s) as [a s1|e s1| |]; auto.
  specialize (Kk a s1). destruct (k a s1); auto; congruence.
Qed.
Lemma keeps_try {A B} (f : State -> B) (m : M A) : keeps f m -> keeps f (try_ m).
Proof. intros K s. unfold try_. specialize (K s). destruct (m s); auto. Qed.
Lemma keeps_forM {A B} (f : State -> B) (l : list A) (k : A -> M unit) :
  (forall x, In x l -> keeps f (k x)) -> keeps f (forM l k).
Proof.
  induction l as [|x r IH]; intros H; simpl.
  - apply keeps_ret.
  - apply keeps_bind; [apply H; left; reflexivity|]. intros _. apply IH. intros y Hy. apply H. right. exact Hy.
Qed.
(* a test is not abstracted over the program that follows it *)
Lemma keeps_if {A B} (f : State -> B) (c : bool) (m1 m2 : M A) : keeps f m1 -> keeps f m2 -> keeps f (if c then m1 else m2).
Proof. destruct c; auto. Qed.
Lemma keeps_option {A B C} (f : State -> B) (x : option C) (m1 : C -> M A) (m2 : M A) :
  (forall c, keeps f (m1 c)) -> keeps f m2 -> keeps f (match x with Some c => m1 c | None => m2 end).
Proof. destruct x; auto. Qed.
Lemma keeps_weaken {A B C} (f : State -> B) (h : B -> C) (m : M A) : keeps f m -> keeps (fun s => h (f s)) m.
Proof. intros K s. specialize (K s). destruct (m s); auto; congruence. Qed.

Definition keeps_from {A B} (f : State -> B) (m : M A) (s : State) : Prop :=
  match m s with Ok _ s' => f s' = f s | Err _ s' => f s' = f s | _ => True end.

Lemma keeps_from_bind {A C B} (f : State -> B) (m : M A) (k : A -> M C) s :
  keeps_from f m s -> (forall a s1, m s = Ok a s1 -> keeps_from f (k a) s1) -> keeps_from f (bind m k) s.
Proof.
  unfold keeps_from, bind. destruct (m s) as [a s1|e s1| |]; auto.
  intros H1 H2. specialize (H2 a s1 eq_refl). destruct (k a s1); auto; congruence.
Qed.

Lemma keeps_send_strict {B} (f : State -> B) from to amt :
  (forall s, f (move from to amt s) = f s) -> keeps f (send_strict from to amt).
Proof. intros H s. unfold send_strict. destruct (amt <=? 0); [reflexivity|]. destruct (_ <? _); [reflexivity|apply H]. Qed.
Lemma keeps_send_lenient {B} (f : State -> B) from to amt :
  (forall s, f (move from to amt s) = f s) -> keeps f (send_lenient from to amt).
Proof. intros H s. unfold send_lenient. destruct (amt =? 0); [reflexivity|]. apply keeps_send_strict. exact H. Qed.

Create HintDb keeps.
Ltac head_of t := lazymatch t with ?g _ => head_of g | _ => t end.

(* leaves the side conditions of the writes it cannot close *)
Ltac keeps_step :=
  cbv beta zeta;
  lazymatch goal with
  | |- keeps _ (bind _ _) => apply keeps_bind; [|intro]
  | |- keeps _ (ret _) => apply keeps_ret
  | |- keeps _ (fail _) => apply keeps_fail
  | |- keeps _ (panic _) => apply keeps_panic
  | |- keeps _ (fun _ => Hang) => apply keeps_hang
  | |- keeps _ get => apply keeps_get
  | |- keeps _ (gets _) => apply keeps_gets
  | |- keeps _ (try_ _) => apply keeps_try
  | |- keeps _ (forM _ _) => apply keeps_forM; intros ? _
  | |- keeps _ (modify _) => apply keeps_modify; intro; try reflexivity
  | |- keeps _ (send_strict _ _ _) => apply keeps_send_strict; intro; try reflexivity
  | |- keeps _ (send_lenient _ _ _) => apply keeps_send_lenient; intro; try reflexivity
  | |- keeps _ (match ?x with _ => _ end) => first [ apply keeps_if | apply keeps_option; [intro|] | destruct x ]
  | |- keeps _ ?m => first [ assumption | solve [auto 2 with keeps] | let h := head_of m in unfold h ]
  end.
Ltac keeps_go := repeat keeps_step.

(** ** values returned *)
Definition returns {A} (Q : A -> Prop) (m : M A) : Prop := forall s a s', m s = Ok a s' -> Q a.

Lemma returns_ret {A} (Q : A -> Prop) a : Q a -> returns Q (ret a).
Proof. intros H s a' s' E. inversion E; subst. exact H. Qed.
Lemma returns_fail {A} (Q : A -> Prop) e : returns Q (fail e).
Proof. intros s a s' E. discriminate. Qed.
Lemma returns_panic {A} (Q : A -> Prop) e : returns Q (panic e).
Proof. intros s a s' E. discriminate. Qed.
Lemma returns_bind {A C} (Q : C -> Prop) (m : M A) (k : A -> M C) :
  (forall a, returns Q (k a)) -> returns Q (bind m k).
Proof. intros H s c s' E. apply bind_ok in E. destruct E as (a & s1 & _ & E). exact (H a s1 c s' E). Qed.

Lemma returns_bind_strong {A C} (P : A -> Prop) (Q : C -> Prop) (m : M A) (k : A -> M C) :
  returns P m -> (forall a, P a -> returns Q (k a)) -> returns Q (bind m k).
Proof.
  intros Hm H s c s' E. apply bind_ok in E. destruct E as (a & s1 & Ea & E).
  exact (H a (Hm _ _ _ Ea) s1 c s' E).
Qed.

Ltac returns_step :=
  cbv beta zeta;
  lazymatch goal with
  | |- returns _ (bind _ _) => apply returns_bind; intro
  | |- returns _ (fail _) => apply returns_fail
  | |- returns _ (panic _) => apply returns_panic
  | |- returns _ (ret _) => apply returns_ret
  | |- returns _ (match ?x with _ => _ end) => destruct x eqn:?
  end.

(** ** no error return *)
Definition noerr {A} (m : M A) : Prop := forall s e s', m s <> Err e s'.
Lemma noerr_ret {A} (a : A) : noerr (ret a). Proof. intros s e s' H. discriminate. Qed.
Lemma noerr_panic {A} e : noerr (@panic A e). Proof. intros s e' s' H. discriminate. Qed.
Lemma noerr_get : noerr get. Proof. intros s e s' H. discriminate. Qed.
Lemma noerr_modify g : noerr (modify g). Proof. intros s e s' H. discriminate. Qed.
Lemma noerr_bind {A C} (m : M A) (k : A -> M C) : noerr m -> (forall a, noerr (k a)) -> noerr (bind m k).
Proof.
  intros Hm Hk s e s' H. unfold bind in H. destruct (m s) as [a s1|e1 s1| |] eqn:E; try discriminate.
  - exact (Hk a s1 e s' H).
  - exact (Hm s e1 s1 E).
Qed.
Ltac noerr_step :=
  cbv beta zeta;
  lazymatch goal with
  | |- noerr (bind _ _) => apply noerr_bind; [|intro]
  | |- noerr (ret _) => apply noerr_ret
  | |- noerr (panic _) => apply noerr_panic
  | |- noerr get => apply noerr_get
  | |- noerr (modify _) => apply noerr_modify
  | |- noerr (match ?x with _ => _ end) => destruct x
  | |- noerr ?m => let h := head_of m in unfold h
  end.

(** ** the schedules *)
Lemma in_sched_insert (m : gmap Z (list Z)) h x :
  In x (default [] (<[h := default [] (m !! h) ++ [x]]> m !! h)).
Proof. rewrite lookup_insert. simpl. apply in_or_app. right. left. reflexivity. Qed.

(* the parts of the store the schedules and C13 talk about. Not [Frame.core], which projects on parameters, staking,
   DIDs, faults and supply; Placement.v and Progress.v import both, this one last. *)
Definition core (s : State) :=
  (shards s, orders s, expshards s, timeouts s, order_count s, shard_count s).

Lemma core_eq s s' : core s' = core s ->
  shards s' = shards s /\ orders s' = orders s /\ expshards s' = expshards s /\ timeouts s' = timeouts s /\
  order_count s' = order_count s /\ shard_count s' = shard_count s.
Proof. unfold core. intros H. inversion H. repeat split; assumption. Qed.

(** * what the market, node and model keepers leave alone *)
Lemma keeps_core_coin_sub a b : keeps core (coin_sub a b).
Proof. unfold coin_sub. keeps_go. Qed.
Global Hint Resolve keeps_core_coin_sub : keeps.
Lemma keeps_core_repay_debt sp rw : keeps core (repay_debt sp rw).
Proof. unfold repay_debt. keeps_go. Qed.
Global Hint Resolve keeps_core_repay_debt : keeps.
Lemma keeps_core_worker_release cx o sh : keeps core (worker_release cx o sh).
Proof. unfold worker_release. keeps_go. Qed.
Lemma keeps_core_worker_append cx o sh : keeps core (worker_append cx o sh).
Proof. unfold worker_append. keeps_go. Qed.
Lemma keeps_core_shard_release sp sh : keeps core (shard_release sp sh).
Proof. unfold shard_release. keeps_go. Qed.
Lemma keeps_core_remove_data_expire d h : keeps core (remove_data_expire d h).
Proof. unfold remove_data_expire. keeps_go. Qed.
Lemma keeps_core_set_data_expire d h : keeps core (set_data_expire d h).
Proof. unfold set_data_expire. keeps_go. Qed.
Global Hint Resolve keeps_core_worker_release keeps_core_worker_append keeps_core_shard_release
  keeps_core_remove_data_expire keeps_core_set_data_expire : keeps.
Lemma keeps_core_extend_meta_duration d h : keeps core (extend_meta_duration d h).
Proof. unfold extend_meta_duration. keeps_go. Qed.
Lemma keeps_core_increase_reputation n v : keeps core (increase_reputation n v).
Proof. unfold increase_reputation. keeps_go. Qed.
Lemma keeps_core_random_sp_m cx c ig sz : keeps core (random_sp_m cx c ig sz).
Proof. unfold random_sp_m. keeps_go. Qed.
Global Hint Resolve keeps_core_extend_meta_duration keeps_core_increase_reputation keeps_core_random_sp_m : keeps.
Lemma keeps_core_delete_meta d : keeps core (delete_meta d).
Proof. unfold delete_meta. keeps_go. Qed.
Global Hint Resolve keeps_core_delete_meta : keeps.
Lemma keeps_core_end_block_model cx : keeps core (end_block_model cx).
Proof. unfold end_block_model. keeps_go. Qed.
Lemma keeps_core_end_block_node cx : keeps core (end_block_node cx).
Proof. unfold end_block_node. keeps_go. Qed.
Lemma keeps_core_set_role c r v : keeps core (set_role c r v).
Proof. unfold set_role. apply keeps_modify. intros s. destruct (nodes s !! c); reflexivity. Qed.
Global Hint Resolve keeps_core_set_role : keeps.
Lemma keeps_core_verify_super v a b : keeps core (verify_super v a b).
Proof. unfold verify_super. keeps_go. destruct (pg s =? 0); reflexivity. Qed.
Global Hint Resolve keeps_core_verify_super : keeps.
Lemma keeps_core_staking_tx evs : keeps core (staking_tx evs).
Proof. unfold staking_tx. apply keeps_forM. intros e _. destruct e; unfold st_event; keeps_go. Qed.
Global Hint Resolve keeps_core_end_block_model keeps_core_end_block_node keeps_core_staking_tx : keeps.

(** * C12: an order handed to providers gets its first check scheduled *)
Theorem ready_schedules_timeout : forall cx s c p oid s' d, step cx s (OReady c p oid) = (s', OutTx COk d) ->
  exists o', orders s' !! oid = Some o' /\ In oid (default [] (timeouts s' !! u64 (cx_height cx + o_timeout o'))).
Proof.
  intros cx s c p oid s' d Hst.
  apply (step_tx_ok _ _ _ (sao_ready cx c p oid)) in Hst; [|reflexivity].
  unfold sao_ready in Hst. rewrite bind_get in Hst.
  apply option_ok in Hst as (o & _ & Hst); [|discriminate].
  cbv zeta in Hst.
  apply if_ok in Hst; [|discriminate].
  apply if_ok in Hst; [|discriminate].
  apply bind_ok in Hst. destruct Hst as (sps & s1 & _ & Hst).
  apply bind_ok in Hst. destruct Hst as (o' & s2 & _ & Hst).
  rewrite bind_modify in Hst. injection Hst as <-.
  exists o'. split; cbn; [apply lookup_insert|apply in_sched_insert].
Qed.
Print Assumptions ready_schedules_timeout.

(** * C12: a fully stored order is left alone by the timeout mechanism *)
Lemma present_all_completed s (l : list Z) :
  (forall id, In id l -> exists sh, shards s !! id = Some sh /\ sh_status sh = ShardCompleted) ->
  let present := omap (fun id => match shards s !! id with Some sh => Some (id, sh) | None => None end) l in
  filter (fun x : Z * Shard => sh_status x.2 =? ShardWaiting) present = [] /\
  filter (fun x : Z * Shard => negb (sh_status x.2 =? ShardCompleted)) present = [].
Proof.
  induction l as [|id r IH]; intros H; simpl.
  - split; reflexivity.
  - destruct (H id (or_introl eq_refl)) as (sh & Hsh & Hst). rewrite Hsh.
    destruct IH as [IH1 IH2]; [intros y Hy; apply H; right; exact Hy|].
    split.
    + rewrite filter_cons_False; [exact IH1|]. simpl. rewrite Hst. vm_compute. tauto.
    + rewrite filter_cons_False; [exact IH2|]. simpl. rewrite Hst. vm_compute. tauto.
Qed.

Theorem timeout_ignores_fully_stored : forall cx oid s o, orders s !! oid = Some o -> o_status o = OrderCompleted ->
  (forall id, In id (o_shards o) -> exists sh, shards s !! id = Some sh /\ sh_status sh = ShardCompleted) ->
  handle_timeout_order cx oid s = Ok tt s.
Proof.
  intros cx oid s o Ho Hst Hall.
  unfold handle_timeout_order, bind at 1, get. rewrite Ho, Hst. simpl (OrderCompleted =? OrderPending).
  cbv iota.
  destruct (_ <=? _); [reflexivity|].
  destruct (present_all_completed s (o_shards o) Hall) as [E1 E2].
  cbv zeta. rewrite E1, E2. simpl.
  unfold bind, remove_shards, modify, ret. simpl. destruct s; reflexivity. (* eta for the record [State] *)
Qed.
Print Assumptions timeout_ignores_fully_stored.

(** * C12: the two known defects of the timeout field *)
(* refutes "the first check of an order comes after its hand-out": Store keeps uint64(timeout), so a negative
   timeout is stored as 2^64 - 1, and Ready at height h schedules the first check at u64 (h + timeout) = h - 1 *)
Theorem negative_timeout_refuted : u64 (-1) = two64 - 1 /\ forall h, 0 < h < two63 -> u64 (h + u64 (-1)) = h - 1.
Proof.
  split; [reflexivity|].
  intros h Hh. change (u64 (-1)) with (two64 - 1). unfold u64, two64, two63 in *.
  symmetry. apply (Z.mod_unique _ _ 1); lia.
Qed.
Print Assumptions negative_timeout_refuted.

Definition wit_cx (h : Z) : Ctx := {| cx_height := h; cx_chain := ""; cx_time := 0; cx_seed := 0 |}.
Definition wit_params : NParams := mkNParams 0 0 0 0 1 0 "" 0 0 0 0.
Definition wit_state (os : list (Z * Order)) (ss : list (Z * Shard)) : State :=
  mkState did_empty ∅ ∅ ∅ None None ∅ ∅ ∅ wit_params (list_to_map os) 1 (list_to_map ss) 1 ∅ ∅ ∅ ∅ ∅ ∅ ∅ 0 ∅ ∅ 0.
Definition wit_order (status created duration timeout : Z) : Order :=
  mkOrder "c" "did:key:o" "p" "cid" duration status 1 [0] 1 1 1 created timeout "data" "commit" PRICE "".
Definition wit_shard : Shard := mkShard 0 ShardWaiting 1 "cid" 0 "" "p" 0 0 [].

(* a timeout longer than the remaining lifetime: the check returns without re-scheduling
   while a shard is still waiting *)
Theorem long_timeout_refuted : exists cx oid s o, orders s !! oid = Some o /\ o_status o = OrderDataReady /\
  (exists id sh, In id (o_shards o) /\ shards s !! id = Some sh /\ sh_status sh = ShardWaiting) /\
  handle_timeout_order cx oid s = Ok tt s /\ timeouts s = ∅.
Proof.
  exists (wit_cx 2003), 0, (wit_state [(0, wit_order OrderDataReady 3 3600 2000)] [(0, wit_shard)]),
         (wit_order OrderDataReady 3 3600 2000).
  split; [vm_compute; reflexivity|]. split; [reflexivity|].
  split; [exists 0, wit_shard; split; [left; reflexivity|split; [vm_compute; reflexivity|reflexivity]]|].
  split; [vm_compute; reflexivity|reflexivity].
Qed.
Print Assumptions long_timeout_refuted.

(** * C11: completion schedules the release *)

Lemma shard_by_sp_lookup s o p sid sh : shard_by_sp s o p = Some (sid, sh) -> In sid (o_shards o) /\ shards s !! sid = Some sh.
Proof.
  unfold shard_by_sp. induction (o_shards o) as [|id r IH]; simpl; [discriminate|].
  destruct (shards s !! id) as [sh0|] eqn:El; [|intros H; destruct (IH H); auto].
  destruct (String.eqb (sh_sp sh0) p) eqn:E; [|intros H; destruct (IH H); auto].
  simpl. intros H. inversion H; subst. auto.
Qed.

Lemma shard_pledge_writes id sh price s r s' : shard_pledge id sh price s = Ok r s' ->
  exists x, shards s' = <[id := sh <| sh_pledge := x |>]> (shards s) /\ expshards s' = expshards s.
Proof.
  unfold shard_pledge. intros H. rewrite bind_get in H.
  apply option_ok in H as (p & _ & H); [|discriminate].
  apply option_ok in H as (po & _ & H); [|discriminate].
  cbv zeta in H.
  apply if_ok in H; [|discriminate].
  apply if_ok in H; [|discriminate].
  apply bind_ok in H. destruct H as (u & s1 & Hm & H).
  assert (K : core s1 = core s).
  { refine (keeps_ok core _ _ _ _ _ Hm). keeps_go. }
  apply core_eq in K. destruct K as (Ksh & _ & Kex & _).
  rewrite bind_modify in H. injection H as _ <-.
  eexists. cbn. rewrite Ksh, Kex. split; reflexivity.
Qed.

Lemma complete_branch_returns cx oid o sid sh :
  returns (fun r : Shard * Order * Order =>
             sh_sp r.1.1 = sh_sp sh /\ sh_created r.1.1 = cx_height cx /\
             (sh_status sh = ShardWaiting -> sh_duration r.1.1 = o_duration o))
    (if sh_status sh =? ShardMigrating then complete_migration cx oid o sid sh
     else
       let sh1 := sh <| sh_created := cx_height cx |> <| sh_duration := o_duration o |> in
       worker_append cx o sh1 ;;;
       if negb (o_status o =? OrderCompleted) then
         update_meta cx oid o ;;;
         market_deposit o ;;;
         ret (sh1, o, o <| o_status := OrderCompleted |>)
       else ret (sh1, o, o)).
Proof.
  destruct (sh_status sh =? ShardMigrating) eqn:E.
  - apply Z.eqb_eq in E. unfold complete_migration.
    repeat returns_step. simpl. rewrite E. repeat split; try reflexivity. discriminate.
  - repeat returns_step; simpl; auto.
Qed.

Theorem complete_schedules : forall cx s c p oid cid sz ok s' d, step cx s (OComplete c p oid cid sz ok) = (s', OutTx COk d) ->
  exists sid sh', shards s' !! sid = Some sh' /\ sh_sp sh' = p /\ sh_status sh' = ShardCompleted /\ sh_created sh' = cx_height cx /\
    In sid (default [] (expshards s' !! u64 (sh_created sh' + sh_duration sh'))) /\
    (forall o sh0, orders s !! oid = Some o -> shard_by_sp s o p = Some (sid, sh0) -> sh_status sh0 = ShardWaiting -> sh_duration sh' = o_duration o).
Proof.
  intros cx s c p oid cid sz ok s' d H.
  apply (step_tx_ok _ _ _ (sao_complete cx c p oid cid sz ok)) in H; [|reflexivity].
  unfold sao_complete in H.
  apply if_ok in H; [|discriminate].
  rewrite bind_get in H.
  apply option_ok in H as (o & Ho & H); [|discriminate].
  apply if_ok in H; [|discriminate].
  apply option_ok in H as ([sid sh] & Hsp & H); [|discriminate].
  apply if_ok in H; [|discriminate].
  apply if_ok in H; [|discriminate].
  apply if_ok in H; [|discriminate].
  apply option_ok in H as (meta & _ & H); [|discriminate].
  apply if_ok in H; [|discriminate].
  apply if_ok in H; [|discriminate].
  apply if_ok in H; [|discriminate].
  apply bind_ok in H. destruct H as (r & s1 & Hr & H).
  apply complete_branch_returns in Hr. destruct r as [[sh1 ip] o']. simpl in Hr. destruct Hr as (Rsp & Rcr & Rdur).
  cbv zeta in H.
  unfold set_expired_shard_block in H. rewrite bind_modify in H.
  apply bind_ok in H. destruct H as ([] & s3 & H3 & H).
  apply (keeps_ok core) in H3; [|auto with keeps]. apply core_eq in H3. destruct H3 as (K3s & _ & K3e & _).
  apply bind_ok in H. destruct H as (shp & s4 & H4 & H).
  apply shard_pledge_writes in H4. destruct H4 as (x & K4s & K4e).
  apply bind_ok in H. destruct H as ([] & s5 & H5 & H).
  apply if_ok in H5; [|discriminate]. injection H5 as <-.
  apply bind_ok in H. destruct H as ([] & s6 & H6 & H).
  apply if_ok in H6; [|discriminate]. injection H6 as <-.
  apply bind_ok in H. destruct H as (u & s7 & H7 & H).
  apply (keeps_ok core) in H7; [|apply keeps_try; auto with keeps]. apply core_eq in H7. destruct H7 as (K7s & _ & K7e & _).
  injection H as <-.
  exists sid. eexists. cbn.
  rewrite K7s, K4s, K7e, K4e, K3e. cbn.
  split; [apply lookup_insert|]. cbn.
  split; [rewrite Rsp; eapply shard_by_sp_sp; exact Hsp|].
  split; [reflexivity|]. split; [exact Rcr|].
  split; [apply in_sched_insert|].
  intros o2 sh0 Ho2 Hsp2 Hw. rewrite Ho in Ho2. injection Ho2 as <-. rewrite Hsp in Hsp2. injection Hsp2 as <-.
  apply Rdur. exact Hw.
Qed.
Print Assumptions complete_schedules.

(** * C11: what the expiry handler does to its shard *)
Theorem expired_shard_post : forall cx sid s s' sh o, handle_expired_shard cx sid s = Ok tt s' ->
  shards s !! sid = Some sh -> orders s !! sh_order sh = Some o ->
  match sh_renew sh with
  | [] => shards s' !! sid = None
  | ri :: rest => exists sh', shards s' !! sid = Some sh' /\ sh_order sh' = ri_order ri /\ sh_created sh' = cx_height cx /\
                    sh_duration sh' = ri_duration ri /\ sh_renew sh' = rest /\ sh_sp sh' = sh_sp sh /\ sh_pledge sh' = sh_pledge sh /\
                    In sid (default [] (expshards s' !! u64 (cx_height cx + ri_duration ri)))
  end /\
  (forall k, k <> sid -> shards s' !! k = shards s !! k) /\
  (* the order loses the shard; it disappears with its last shard *)
  match o_shards o with
  | [x] => if x =? sid then orders s' !! sh_order sh = None else orders s' !! sh_order sh = Some o
  | l => exists o', orders s' !! sh_order sh = Some o' /\ o_shards o' = remove_firstZ sid l
  end.
Proof.
  intros cx sid s s' sh o H Hsh Ho.
  unfold handle_expired_shard in H.
  rewrite bind_get in H.
  rewrite Hsh, Ho in H.
  apply bind_ok in H. destruct H as (u1 & s1 & H1 & H).
  apply (keeps_ok core) in H1; [|apply keeps_try; auto with keeps]. apply core_eq in H1.
  destruct H1 as (K1s & K1o & K1e & _).
  apply bind_ok in H. destruct H as ([] & s2 & H2 & H).
  assert (A : match sh_renew sh with
              | [] => shards s2 !! sid = None
              | ri :: rest => exists sh', shards s2 !! sid = Some sh' /\ sh_order sh' = ri_order ri /\ sh_created sh' = cx_height cx /\
                    sh_duration sh' = ri_duration ri /\ sh_renew sh' = rest /\ sh_sp sh' = sh_sp sh /\ sh_pledge sh' = sh_pledge sh /\
                    In sid (default [] (expshards s2 !! u64 (cx_height cx + ri_duration ri)))
              end /\ (forall k, k <> sid -> shards s2 !! k = shards s !! k) /\ orders s2 = orders s).
  { destruct (sh_renew sh) as [|ri rest].
    - apply bind_ok in H2. destruct H2 as (u2 & s1a & H2a & H2).
      apply (keeps_ok core) in H2a; [|apply keeps_try; auto with keeps]. apply core_eq in H2a.
      destruct H2a as (Kas & Kao & _).
      injection H2 as <-. cbn.
      rewrite Kas, K1s, Kao, K1o.
      split; [apply lookup_delete|]. split; [|reflexivity].
      intros k Hk. apply lookup_delete_ne. congruence.
    - cbv zeta in H2. unfold set_expired_shard_block in H2. rewrite !bind_modify, bind_get in H2.
      apply bind_ok in H2. destruct H2 as (u3 & s1d & H2d & H2).
      apply (keeps_ok core) in H2d; [|apply keeps_try; auto with keeps]. apply core_eq in H2d.
      destruct H2d as (Kds & Kdo & Kde & _).
      injection H2 as <-.
      rewrite Kds, Kdo, Kde. cbn. rewrite K1s, K1o, K1e.
      split; [|split; [|reflexivity]].
      + eexists. split; [apply lookup_insert|]. cbn. repeat split; try reflexivity. apply in_sched_insert.
      + intros k Hk. apply lookup_insert_ne. congruence. }
  destruct A as (A1 & A2 & A3).
  assert (B : shards s' = shards s2 /\ expshards s' = expshards s2 /\
              match o_shards o with
              | [x] => if x =? sid then orders s' = delete (sh_order sh) (orders s2) else orders s' = orders s2
              | l => orders s' = <[sh_order sh := o <| o_shards := remove_firstZ sid l |>]> (orders s2)
              end).
  { destruct (o_shards o) as [|x [|y l]].
    - injection H as <-. cbn. auto.
    - destruct (x =? sid).
      + injection H as <-. cbn. auto.
      + injection H as <-. auto.
    - injection H as <-. cbn. auto. }
  destruct B as (B1 & B2 & B3). rewrite B1, B2.
  split; [exact A1|]. split; [exact A2|].
  destruct (o_shards o) as [|x [|y l]].
  - rewrite B3. eexists. split; [apply lookup_insert|reflexivity].
  - destruct (x =? sid); rewrite B3.
    + apply lookup_delete.
    + rewrite A3. exact Ho.
  - rewrite B3. eexists. split; [apply lookup_insert|reflexivity].
Qed.
Print Assumptions expired_shard_post.

(** * C11 "not before": what the end-blocker may remove *)
Lemma keeps_shard_at_of_core {A} (m : M A) (sid : Z) : keeps core m -> keeps (fun s => shards s !! sid) m.
Proof. intros K. exact (keeps_weaken core (fun c => c.1.1.1.1.1 !! sid) m K). Qed.
Global Hint Resolve keeps_shard_at_of_core : keeps.

Lemma handle_expired_shard_other cx x sid : x <> sid -> keeps (fun s => shards s !! sid) (handle_expired_shard cx x).
Proof.
  intros Hx. unfold handle_expired_shard. keeps_go.
  - cbn. apply lookup_delete_ne. exact Hx.
  - cbn. apply lookup_insert_ne. exact Hx.
Qed.

Definition timeouts_idle (cx : Ctx) (s : State) : Prop :=
  forall l, timeouts s !! cx_height cx = Some l -> forM l (handle_timeout_order cx) s = Ok tt s.

Lemma end_block_sao_keeps cx sid s :
  timeouts_idle cx s -> ~ In sid (default [] (expshards s !! cx_height cx)) ->
  keeps_from (fun s0 => shards s0 !! sid) (end_block_sao cx) s.
Proof.
  intros Hidle Hnot. unfold end_block_sao.
  apply keeps_from_bind; [reflexivity|intros ? ? [= <- <-]]. apply keeps_from_bind.
  - destruct (timeouts s !! cx_height cx) as [l|] eqn:E; [|reflexivity].
    unfold keeps_from, bind. rewrite (Hidle l E). reflexivity.
  - intros [] s1 E1.
    assert (Ee : expshards s1 = expshards s).
    { destruct (timeouts s !! cx_height cx) as [l|] eqn:E; [unfold bind in E1; rewrite (Hidle l E) in E1|];
        injection E1 as <-; reflexivity. }
    apply keeps_from_bind; [reflexivity|intros ? ? [= <- <-]]. rewrite Ee.
    destruct (expshards s !! cx_height cx) as [l|]; [|reflexivity].
    refine (keeps_bind (fun s0 => shards s0 !! sid) _ _ _ _ s1).
    + apply keeps_forM. intros x Hx. apply handle_expired_shard_other. intros ->. exact (Hnot Hx).
    + intros _. apply keeps_modify. reflexivity.
Qed.

Lemma end_block_keeps cx evs sid s :
  (forall s1, core s1 = core s -> timeouts_idle cx s1) ->
  ~ In sid (default [] (expshards s !! cx_height cx)) ->
  keeps_from (fun s0 => shards s0 !! sid) (end_block cx evs) s.
Proof.
  intros Hidle Hnot. unfold end_block. apply keeps_from_bind.
  - exact (keeps_shard_at_of_core _ sid (keeps_core_staking_tx evs) s).
  - intros [] s1 E1. apply (keeps_ok core) in E1; [|auto with keeps].
    pose proof (core_eq _ _ E1) as (_ & _ & Ke & _). apply keeps_from_bind.
    + apply end_block_sao_keeps; [exact (Hidle s1 E1)|rewrite Ke; exact Hnot].
    + intros _ s2 _. apply keeps_shard_at_of_core. apply keeps_bind; auto with keeps.
Qed.

Lemma end_block_removed cx evs s sid sh :
  shards s !! sid = Some sh -> shards (fst (step cx s (OEndBlock evs))) !! sid = None ->
  keeps_from (fun s0 => shards s0 !! sid) (end_block cx evs) s -> False.
Proof.
  intros Hsh Hrem. unfold step, block_phase in Hrem. unfold keeps_from.
  destruct (end_block cx evs s) as [u s1|e s1| |]; simpl in Hrem; intros K; congruence.
Qed.

Theorem end_block_releases_only_scheduled : forall cx s evs sid sh,
  shards s !! sid = Some sh -> sh_status sh = ShardCompleted -> shards (fst (step cx s (OEndBlock evs))) !! sid = None ->
  In sid (default [] (expshards s !! cx_height cx)) \/
  (exists oid, In oid (default [] (timeouts s !! cx_height cx))).
Proof.
  intros cx s evs sid sh Hsh _ Hrem.
  destruct (In_dec Z.eq_dec sid (default [] (expshards s !! cx_height cx))) as [Hin|Hnot]; [left; exact Hin|].
  destruct (timeouts s !! cx_height cx) as [[|oid l]|] eqn:E.
  - exfalso. apply (end_block_removed cx evs s sid sh Hsh Hrem). apply end_block_keeps; [|exact Hnot].
    intros s1 K l Hl. apply core_eq in K. destruct K as (_ & _ & _ & Kt & _). rewrite Kt, E in Hl.
    inversion Hl; subst l. reflexivity.
  - right. exists oid. left. reflexivity.
  - exfalso. apply (end_block_removed cx evs s sid sh Hsh Hrem). apply end_block_keeps; [|exact Hnot].
    intros s1 K l Hl. apply core_eq in K. destruct K as (_ & _ & _ & Kt & _). rewrite Kt, E in Hl. discriminate.
Qed.
Print Assumptions end_block_releases_only_scheduled.

(* stronger: the right alternative needs an order under check that is not fully stored; stated
   contrapositively, to stay without classical logic *)
Definition fully_stored (s : State) (oid : Z) : Prop :=
  orders s !! oid = None \/
  exists o, orders s !! oid = Some o /\ o_status o = OrderCompleted /\
            forall id, In id (o_shards o) -> exists sh, shards s !! id = Some sh /\ sh_status sh = ShardCompleted.

Lemma timeout_loop_fully_stored cx s l :
  (forall oid, In oid l -> fully_stored s oid) -> forM l (handle_timeout_order cx) s = Ok tt s.
Proof.
  induction l as [|oid r IH]; intros H; [reflexivity|].
  simpl. unfold bind.
  assert (E : handle_timeout_order cx oid s = Ok tt s).
  { destruct (H oid (or_introl eq_refl)) as [Hn|(o & Ho & Hst & Hall)].
    - unfold handle_timeout_order, bind, get. rewrite Hn. reflexivity.
    - eapply timeout_ignores_fully_stored; eassumption. }
  rewrite E. apply IH. intros y Hy. apply H. right. exact Hy.
Qed.

Theorem end_block_releases_only_scheduled_strong : forall cx s evs sid sh,
  (forall oid, In oid (default [] (timeouts s !! cx_height cx)) -> fully_stored s oid) ->
  shards s !! sid = Some sh -> shards (fst (step cx s (OEndBlock evs))) !! sid = None ->
  In sid (default [] (expshards s !! cx_height cx)).
Proof.
  intros cx s evs sid sh Hfs Hsh Hrem.
  destruct (In_dec Z.eq_dec sid (default [] (expshards s !! cx_height cx))) as [Hin|Hnot]; [exact Hin|].
  exfalso. apply (end_block_removed cx evs s sid sh Hsh Hrem). apply end_block_keeps; [|exact Hnot].
  intros s1 K l Hl. apply core_eq in K. destruct K as (Ks & Ko & _ & Kt & _).
  apply timeout_loop_fully_stored. intros oid Hoid.
  rewrite Kt in Hl. rewrite Hl in Hfs. specialize (Hfs oid Hoid).
  unfold fully_stored. rewrite Ks, Ko. exact Hfs.
Qed.
Print Assumptions end_block_releases_only_scheduled_strong.

(** * C12: one step of the timeout check *)
Lemma noerr_rollback_meta cx d : noerr (rollback_meta cx d).
Proof. unfold rollback_meta. repeat noerr_step. Qed.

Lemma refund_order_err oid s e s' : refund_order oid s = Err e s' -> s' = s.
Proof.
  unfold refund_order, bind, get. destruct (orders s !! oid) as [o|]; [|intros H; inversion H; reflexivity].
  cbv zeta. destruct (pay_addr s _) as [payer|]; [|intros H; inversion H; reflexivity].
  unfold send_strict. destruct (_ <=? 0); [intros H; inversion H; reflexivity|].
  destruct (_ <? _); intros H; inversion H; reflexivity.
Qed.

Lemma cancel_order_spec cx oid s :
  match cancel_order cx oid s with
  | Ok _ s' => orders s' !! oid = None
  | Err _ s' => s' = s /\ exists e, refund_order oid s = Err e s
  | _ => True
  end.
Proof.
  unfold cancel_order. rewrite bind_get. cbv zeta. unfold bind at 1, try_.
  destruct (refund_order oid s) as [u s1|e1 s1| |] eqn:E; [| |exact I|exact I].
  - unfold bind. match goal with |- context [rollback_meta cx ?d s1] => pose proof (noerr_rollback_meta cx d s1) as N end.
    destruct (rollback_meta cx _ s1) as [u2 s2|e2 s2| |]; [apply lookup_delete|destruct (N _ _ eq_refl)|exact I|exact I].
  - apply refund_order_err in E as Es. subst s1. cbn. eauto.
Qed.

Lemma try_cancel_order cx oid s r s' : try_ (cancel_order cx oid) s = Ok r s' ->
  orders s' !! oid = None \/ (s' = s /\ exists e, refund_order oid s = Err e s).
Proof.
  unfold try_. pose proof (cancel_order_spec cx oid s) as P.
  destruct (cancel_order cx oid s); try discriminate; intros [= _ <-]; auto.
Qed.

(* a copy of the first [let] of [handle_timeout_order], [fold]ed in the proofs about it *)
Definition listed (s : State) (o : Order) : list (Z * Shard) :=
  omap (fun id => match shards s !! id with Some sh => Some (id, sh) | None => None end) (o_shards o).
Lemma In_listed s o id sh : In (id, sh) (listed s o) <-> In id (o_shards o) /\ shards s !! id = Some sh.
Proof.
  unfold listed. generalize (shards s) as m. intros m. rewrite <- !elem_of_list_In, elem_of_list_omap. split.
  - intros (i & Hi & E). destruct (m !! i) as [y|] eqn:Ey; [|discriminate]. injection E as <- <-. auto.
  - intros [Hi E]. exists id. rewrite E. auto.
Qed.

Lemma remove_all_lookup (l : list Z) : forall (m : gmap Z Shard) id, In id l ->
  fold_left (fun m id => delete id m) l m !! id = None.
Proof.
  induction l as [|x r IH]; intros m id Hin; [destruct Hin|].
  simpl. destruct (In_dec Z.eq_dec id r) as [Hr|Hr].
  - apply IH. exact Hr.
  - destruct Hin as [->|Hin]; [|contradiction].
    clear IH. revert m. induction r as [|y r IH]; intros m; simpl.
    + apply lookup_delete.
    + rewrite delete_commute. apply IH. intros Hy. apply Hr. right. exact Hy.
Qed.

Lemma i32_sub_ne r t : 0 < t < two32 -> i32 (r - i32 t) <> r.
Proof.
  intros Ht. unfold i32.
  assert (Et : t mod two32 = t) by (apply Z.mod_small; lia). rewrite Et. cbv zeta.
  destruct (Z.ltb_spec t two31) as [L1|L1];
  match goal with |- (if ?a <? ?b then _ else _) <> _ => destruct (Z.ltb_spec a b) as [L2|L2] end;
  unfold two32, two31 in *; Z.div_mod_to_equations; lia.
Qed.

(* the check gave up on the order but the refund fails: the order record stays, not
   re-scheduled, while all its shards have been removed *)
Definition cancel_stuck (oid : Z) (o : Order) (s s' : State) : Prop :=
  o_status o <> OrderCompleted /\ (exists e, refund_order oid s' = Err e s') /\
  orders s' !! oid = Some o /\ (forall id, In id (o_shards o) -> shards s' !! id = None) /\
  timeouts s' = timeouts s.

Theorem timeout_progress_step_partial : forall cx oid s s' o, handle_timeout_order cx oid s = Ok tt s' -> orders s !! oid = Some o ->
  o_status o <> OrderPending -> u64 (cx_height cx + o_timeout o) < u64 (o_created o + o_duration o) ->
  (exists id sh, In id (o_shards o) /\ shards s !! id = Some sh /\ sh_status sh = ShardWaiting) ->
  Z.of_nat (length (o_shards o)) < two32 ->
  In oid (default [] (timeouts s' !! u64 (cx_height cx + o_timeout o))) \/
  orders s' !! oid = None \/
  (exists o', orders s' !! oid = Some o' /\ o_replica o' <> o_replica o) \/
  cancel_stuck oid o s s'.
Proof.
  intros cx oid s s' o H Ho Hnp Hlt (id & sh & Hid & Hsh & Hw) Hlen.
  (* The way in, shared with [Placement.timeout_new_shards_fresh] and [Progress.timeout_check_cases]: past the two guards
     (pending, lifetime over), [H] is the rest of the check with its [let]s expanded and the listed shards, the waiting ones
     and the cut-down order named; then some shard waits, so providers are drawn ([Hr]) and [H] continues from [s1]. *)
  unfold handle_timeout_order in H. rewrite bind_get, Ho in H.
  apply if_false_ok in H; [|apply Z.eqb_neq; exact Hnp]. apply if_false_ok in H; [|apply Z.leb_gt; exact Hlt].
  cbv zeta in H. fold (listed s o) in H.
  set (tshards := filter _ (listed s o)) in H.
  set (tcount := Z.of_nat (length tshards)) in H.
  (* named because the refund mentions it eight times, and every case split below carries the hypothesis *)
  set (o1 := o <| o_replica := _ |> <| o_shards := _ |>) in H.
  assert (Hin : (id, sh) ∈ tshards).
  { apply elem_of_list_filter. split; [simpl; rewrite Hw; exact I|]. apply elem_of_list_In, In_listed. auto. }
  assert (Htc : 0 < tcount < two32).
  { unfold tcount. split.
    - destruct tshards; [inversion Hin|]. simpl length. lia.
    - apply Z.le_lt_trans with (Z.of_nat (length (o_shards o))); [apply Nat2Z.inj_le|exact Hlen].
      etransitivity; [apply filter_length|apply omap_length_le]. }
  apply if_false_ok in H; [|apply Z.eqb_neq; lia].
  apply bind_ok in H. destruct H as (rand & s1 & Hr & H).
  apply (keeps_ok core) in Hr; [|auto with keeps]. apply core_eq in Hr. destruct Hr as (K1s & K1o & _ & K1t & _).
  destruct rand as [|r0 rand].
  - destruct (_ <? _).
    + destruct (negb (o_status o =? OrderCompleted)) eqn:E4.
      * unfold remove_shards in H. rewrite bind_modify in H.
        apply bind_ok in H. destruct H as (r & s3 & H3 & H). injection H as <-.
        apply try_cancel_order in H3 as [H3|(-> & e' & H3)].
        -- right. left. exact H3.
        -- right. right. right.
           split; [intros Hc; rewrite Hc in E4; discriminate|].
           split; [exists e'; exact H3|]. cbn.
           split; [rewrite K1o; exact Ho|]. split; [|exact K1t].
           intros i Hi. apply remove_all_lookup. exact Hi.
      * right. right. left.
        apply bind_ok in H. destruct H as ([] & s2 & _ & H).
        cbv zeta in H.
        apply if_ok in H; [|discriminate].
        apply bind_ok in H. destruct H as (o2 & s3 & H3 & H).
        assert (R : o_replica o2 = i32 (o_replica o - i32 tcount)).
        { match type of H3 with ?m _ = _ =>
            assert (R : returns (fun o2 => o_replica o2 = i32 (o_replica o - i32 tcount)) m)
          end.
          { repeat returns_step; reflexivity. }
          exact (R _ _ _ H3). }
        injection H as <-.
        exists o2. split; [apply lookup_insert|]. rewrite R. apply i32_sub_ne. exact Htc.
    + left. injection H as <-. cbn. rewrite K1t. apply in_sched_insert.
  - left.
    apply bind_ok in H. destruct H as (o' & s2 & H2 & H). rewrite bind_modify in H.
    injection H as <-. apply in_sched_insert.
Qed.
Print Assumptions timeout_progress_step_partial.

(* the statement without the fourth alternative is false: no provider is available, the tries
   are exhausted, the owner has no payment address -- the order stays, unscheduled, its shards gone *)
Definition stuck_state : State := wit_state [(0, wit_order OrderDataReady 3 3600 10)] [(0, wit_shard)].
Definition stuck_state' : State :=
  match handle_timeout_order (wit_cx 200) 0 stuck_state with Ok _ s' => s' | _ => stuck_state end.

Theorem timeout_progress_step_refuted : exists cx oid s s' o,
  handle_timeout_order cx oid s = Ok tt s' /\ orders s !! oid = Some o /\
  o_status o <> OrderPending /\ u64 (cx_height cx + o_timeout o) < u64 (o_created o + o_duration o) /\
  (exists id sh, In id (o_shards o) /\ shards s !! id = Some sh /\ sh_status sh = ShardWaiting) /\
  Z.of_nat (length (o_shards o)) < two32 /\
  ~ (In oid (default [] (timeouts s' !! u64 (cx_height cx + o_timeout o))) \/
     orders s' !! oid = None \/
     (exists o', orders s' !! oid = Some o' /\ o_replica o' <> o_replica o)) /\
  cancel_stuck oid o s s'.
Proof.
  exists (wit_cx 200), 0, stuck_state, stuck_state', (wit_order OrderDataReady 3 3600 10).
  split; [vm_compute; reflexivity|].
  split; [vm_compute; reflexivity|].
  split; [discriminate|].
  split; [vm_compute; reflexivity|].
  split; [exists 0, wit_shard; split; [left; reflexivity|split; [vm_compute; reflexivity|reflexivity]]|].
  split; [vm_compute; reflexivity|].
  split.
  - intros [H|[H|(o' & H1 & H2)]].
    + vm_compute in H. exact H.
    + vm_compute in H. discriminate.
    + vm_compute in H1. inversion H1; subst o'. apply H2. reflexivity.
  - split; [discriminate|].
    split; [eexists; vm_compute; reflexivity|].
    split; [vm_compute; reflexivity|].
    split; [|reflexivity].
    intros id [<-|[]]. vm_compute. reflexivity.
Qed.
Print Assumptions timeout_progress_step_refuted.

(** * C13: the links created by Store *)
Lemma random_sp_m_length cx count ig sz :
  returns (fun l : list string => Z.of_nat (length l) <= Z.max 0 count) (random_sp_m cx count ig sz).
Proof.
  unfold random_sp_m. intros s l s' H.
  rewrite bind_get in H.
  destruct (random_sp _ _ _ _ _ _ _) as [[sps r]| |] eqn:E; try discriminate.
  apply random_sp_sound in E as (_ & _ & E).
  apply bind_ok in H. destruct H as (u & s1 & _ & H). inversion H; subst. rewrite map_length. exact E.
Qed.

Lemma get_sps_length cx o data :
  returns (fun l : list string => Z.of_nat (length l) <= o_replica o) (get_sps cx o data).
Proof.
  unfold get_sps. destruct (o_op o =? 1).
  - eapply returns_bind_strong; [apply random_sp_m_length|]. intros sps Hl. cbv beta in Hl |- *.
    destruct (o_replica o <=? 0) eqn:E1; [apply returns_fail|]. simpl.
    destruct (_ <? _); [apply returns_fail|]. apply returns_ret. apply Z.leb_gt in E1. lia.
  - destruct (o_op o =? 2); [|apply returns_fail].
    destruct (o_replica o <=? 0) eqn:E1; [apply returns_fail|]. apply Z.leb_gt in E1.
    apply returns_bind. intros s. cbv zeta.
    set (cur := find_sp_by_data s data).
    eapply (returns_bind_strong (fun l : list string => Z.of_nat (length l) <= o_replica o)).
    + destruct (o_replica o <? Z.of_nat (length cur)) eqn:E2.
      * apply returns_ret. rewrite take_length. lia.
      * apply Z.ltb_ge in E2. destruct (Z.of_nat (length cur) <? o_replica o) eqn:E3.
        -- eapply returns_bind_strong; [apply random_sp_m_length|]. intros add Hadd. cbv beta in Hadd |- *.
           apply returns_ret. rewrite app_length. lia.
        -- apply returns_ret. exact E2.
    + intros sps Hl. cbv beta in Hl |- *. destruct (_ <? _); [apply returns_fail|]. apply returns_ret. exact Hl.
Qed.

Lemma keeps_core_get_sps cx o data : keeps core (get_sps cx o data).
Proof. unfold get_sps. keeps_go. Qed.

Lemma gen_shards_links oid : forall sps o s o' s', gen_shards oid o sps s = Ok o' s' ->
  0 <= shard_count s -> shard_count s + Z.of_nat (length sps) < two64 ->
  o_data o' = o_data o /\
  exists ids, o_shards o' = o_shards o ++ ids /\ NoDup ids /\
    (forall i, In i ids -> shard_count s <= i /\
                           exists sh, shards s' !! i = Some sh /\ sh_order sh = oid /\ sh_status sh = ShardWaiting) /\
    (forall i, i < shard_count s -> shards s' !! i = shards s !! i).
Proof.
  induction sps as [|sp r IH]; intros o s o' s' H H0 Hb.
  - simpl in H. inversion H; subst. split; [reflexivity|]. exists []. rewrite app_nil_r.
    split; [reflexivity|]. split; [apply NoDup_nil_2|]. split; [intros i []|]. reflexivity.
  - simpl in H. apply bind_ok in H. destruct H as (id & s1 & H1 & H).
    unfold new_shard_task, append_shard, bind, get, modify, ret in H1. inversion H1; subst id s1; clear H1.
    simpl length in Hb.
    assert (Eu : u64 (shard_count s + 1) = shard_count s + 1) by (apply u64_id; lia).
    apply IH in H; cbn; rewrite ?Eu; try lia.
    destruct H as (Hd & ids & Hsh & Hnd & Hin & Hlow). cbn in *. rewrite Eu in *.
    split; [exact Hd|].
    exists (shard_count s :: ids). split; [rewrite Hsh, <- app_assoc; reflexivity|].
    split.
    { apply NoDup_cons_2; [|exact Hnd]. intros Hx. apply elem_of_list_In in Hx. apply Hin in Hx. lia. }
    split.
    + intros i [<-|Hi].
      * split; [lia|]. rewrite Hlow by lia. rewrite lookup_insert. eexists. split; [reflexivity|]. split; reflexivity.
      * destruct (Hin i Hi) as (Hge & Hx). split; [lia|exact Hx].
    + intros i Hi. rewrite Hlow by lia. apply lookup_insert_ne. lia.
Qed.

Lemma new_order_links cx o sps s id o2 s' : new_order cx o sps s = Ok (id, o2) s' ->
  0 <= shard_count s -> shard_count s + Z.of_nat (length sps) < two64 -> o_shards o = [] ->
  id = order_count s /\ orders s' !! id = Some o2 /\ o_data o2 = o_data o /\ NoDup (o_shards o2) /\
  metas s' = metas s /\
  (forall i, In i (o_shards o2) -> shard_count s <= i /\
                                   exists sh, shards s' !! i = Some sh /\ sh_order sh = id /\ sh_status sh = ShardWaiting).
Proof.
  intros H H0 Hb He. unfold new_order in H.
  apply bind_ok in H. destruct H as (id0 & s1 & H1 & H).
  unfold append_order, bind, get, modify, ret in H1. inversion H1; subst id0 s1; clear H1.
  apply bind_ok in H. destruct H as (o1 & s2 & H2 & H).
  rewrite bind_modify in H. injection H as <- <- <-.
  assert (G : o_data o1 = o_data o /\ metas s2 = metas s /\ NoDup (o_shards o1) /\
              forall i, In i (o_shards o1) -> shard_count s <= i /\
                 exists sh, shards s2 !! i = Some sh /\ sh_order sh = order_count s /\ sh_status sh = ShardWaiting).
  { unfold generate_shards in H2. destruct sps as [|sp r].
    - inversion H2; subst. rewrite He. split; [reflexivity|]. split; [reflexivity|]. split; [apply NoDup_nil_2|]. intros i [].
    - apply bind_ok in H2. destruct H2 as (o' & s2' & H2 & H2r). inversion H2r; subst o1 s2'; clear H2r.
      assert (Km : metas s2 = metas s).
      { assert (K : forall l o0, keeps metas (gen_shards (order_count s) o0 l)).
        { induction l as [|x l IHl]; intros o0; simpl; [apply keeps_ret|].
          apply keeps_bind; [unfold new_shard_task, append_shard; keeps_go|]. intros a. apply IHl. }
        exact (keeps_ok metas _ _ _ _ (K _ _) H2). }
      apply gen_shards_links in H2; [|exact H0|exact Hb].
      destruct H2 as (Hd & ids & Hsh & Hnd & Hin & _). rewrite He in Hsh. simpl in Hsh. cbn.
      split; [exact Hd|]. split; [exact Km|]. rewrite Hsh. split; [exact Hnd|]. exact Hin. }
  destruct G as (Gd & Gm & Gn & Gi). cbn.
  split; [reflexivity|]. split; [apply lookup_insert|]. split; [exact Gd|]. split; [exact Gn|].
  split; [exact Gm|exact Gi].
Qed.

Lemma keeps_core_umsc cx oid o : keeps core (update_meta_status_commit cx oid o).
Proof. unfold update_meta_status_commit. keeps_go. Qed.
Lemma keeps_core_new_meta cx o d nm : keeps core (new_meta cx o d nm).
Proof. unfold new_meta. keeps_go. Qed.

Lemma umsc_ok cx oid o s s' : update_meta_status_commit cx oid o s = Ok tt s' ->
  exists em, metas s' !! o_data o = Some em /\ m_order em = oid.
Proof.
  unfold update_meta_status_commit. intros H.
  rewrite bind_get in H.
  apply option_ok in H as (m & _ & H); [|discriminate].
  apply if_ok in H; [|discriminate]. cbv zeta in H.
  apply if_ok in H; [|discriminate].
  apply bind_ok in H. destruct H as (m1 & s1 & _ & H).
  injection H as <-. cbn. eexists. split; [apply lookup_insert|reflexivity].
Qed.

Lemma new_meta_ok cx o d nm s s' : new_meta cx o d nm s = Ok tt s' -> metas s' !! d = Some nm.
Proof.
  unfold new_meta. intros H.
  rewrite bind_get in H.
  apply if_ok in H; [|discriminate].
  apply if_ok in H; [|discriminate].
  apply if_ok in H; [|discriminate].
  rewrite bind_modify in H. injection H as <-. apply lookup_insert.
Qed.

(* needs: the id counters bound the stored ids ([Inv_ids]), the counters are far from the
   uint64 wrap ([counts_small]), and the replica count fits the int32 of the Go message
   (< 2^31, [Frame.sizes_small]; the proof needs no more than < 2^63) *)
Theorem store_links : forall cx s m s' d, step cx s (OStore m) = (s', OutTx COk d) ->
  Inv_ids s -> counts_small s -> st_replica m < two63 ->
  exists oid o, oid = order_count s /\ orders s' !! oid = Some o /\
    (forall id, In id (o_shards o) -> exists sh, shards s' !! id = Some sh /\ sh_order sh = oid /\ sh_status sh = ShardWaiting /\ shards s !! id = None) /\
    NoDup (o_shards o) /\
    exists em, metas s' !! st_data m = Some em /\ m_order em = oid.
Proof.
  intros cx s m s' d H (_ & Hids) (_ & Hsc) Hrep.
  apply (step_tx_ok _ _ _ (sao_store cx m)) in H; [|reflexivity].
  unfold sao_store in H.
  rewrite bind_get in H.
  apply option_ok in H as (sigdid & _ & H); [|discriminate].
  apply if_ok in H; [|discriminate].
  apply if_ok in H; [|discriminate].
  apply if_ok in H; [|discriminate].
  apply if_ok in H; [|discriminate].
  apply if_ok in H; [|discriminate].
  cbv zeta in H.
  apply if_ok in H; [|discriminate].
  apply if_ok in H; [|discriminate].
  apply bind_ok in H. destruct H as (pay0 & sa & Ha & H).
  apply (keeps_ok core) in Ha; [|keeps_go].
  apply option_ok in H as (? & _ & H); [|discriminate].
  destruct (split_commit (st_commit m)) as [last_commit commit].
  apply if_ok in H; [|discriminate].
  apply bind_ok in H. destruct H as (isp & sb & Hb & H).
  apply (keeps_ok core) in Hb; [|keeps_go].
  apply bind_ok in H. destruct H as (sps & sc & Hc & H).
  assert (Hlen : Z.of_nat (length sps) <= Z.max 0 (st_replica m)).
  { destruct isp.
    - apply get_sps_length in Hc. simpl in Hc. lia.
    - inversion Hc; subst. simpl. lia. }
  apply (keeps_ok core) in Hc; [|destruct isp; [apply keeps_core_get_sps|apply keeps_ret]].
  apply if_ok in H; [|discriminate].
  rewrite bind_get in H.
  apply bind_ok in H. destruct H as (payer & sd & Hd & H).
  apply (keeps_ok core) in Hd; [|keeps_go].
  apply if_ok in H; [|discriminate].
  apply bind_ok in H. destruct H as ([] & se & He & H).
  apply (keeps_ok core) in He; [|keeps_go].
  apply bind_ok in H. destruct H as ([oid o2] & sf & Hf & H).
  assert (Kc : core se = core s) by congruence.
  apply core_eq in Kc. destruct Kc as (Ks & Ko & _ & _ & Koc & Ksc).
  apply new_order_links in Hf; [| rewrite Ksc; lia | rewrite Ksc; unfold two64, two63 in *; lia | reflexivity].
  destruct Hf as (Fid & Fo & Fd & Fn & _ & Fi). cbn in Fd.
  apply bind_ok in H. destruct H as ([] & sg & Hg & H).
  assert (Kg : shards sg = shards sf /\ orders sg = orders sf).
  { destruct isp; [unfold set_timeout_block, modify in Hg|unfold ret in Hg]; inversion Hg; subst sg; split; reflexivity. }
  destruct Kg as (Kgs & Kgo).
  rewrite bind_get in H.
  assert (T : core s' = core sg /\ exists em, metas s' !! st_data m = Some em /\ m_order em = oid).
  { destruct (metas sg !! st_data m) as [em|].
    - apply if_ok in H; [|discriminate].
      apply option_ok in H as (lo & _ & H); [|discriminate].
      apply if_ok in H; [|discriminate].
      apply if_ok in H; [|discriminate].
      split; [exact (keeps_ok core _ _ _ _ (keeps_core_umsc _ _ _) H)|].
      apply umsc_ok in H. rewrite Fd in H. exact H.
    - split; [exact (keeps_ok core _ _ _ _ (keeps_core_new_meta _ _ _ _) H)|].
      apply new_meta_ok in H. eexists. split; [exact H|reflexivity]. }
  destruct T as (Tc & Tm). apply core_eq in Tc. destruct Tc as (Ts & To & _).
  exists oid, o2.
  split; [rewrite Fid; exact Koc|].
  split; [rewrite To, Kgo; exact Fo|].
  split.
  - intros id Hid. destruct (Fi id Hid) as (Hge & sh & Hsh & Hso & Hss).
    exists sh. rewrite Ts, Kgs. split; [exact Hsh|]. split; [exact Hso|]. split; [exact Hss|].
    destruct (shards s !! id) as [sh0|] eqn:E; [|reflexivity].
    apply Hids in E. rewrite Ksc in Hge. lia.
  - split; [exact Fn|exact Tm].
Qed.
Print Assumptions store_links.
