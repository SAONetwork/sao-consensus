(* The base of the handler proofs. A keeper function is a term of the outcome monad; [mok R h m] says that
   every state [m] can leave behind is [R]-related to the one it started from, and is proved by following the
   syntax of [m]. The file establishes the frame of every keeper function, carries relations from the handlers
   across [step], and proves about [step]: which tables an operation can change, supply and balance
   conservation, that no ABCI call hangs when the seed has at most 400 digits, and that order and shard
   identifiers stay below their counters and are never reused. *)
From SaoVerif Require Import Base.Prelude Base.Ints Base.Dec Model.Did Model.Types Model.Monad Model.Bank Model.Select
     Model.Node Model.Storage Model.Sao Model.Hooks Model.App Model.Spec Proofs.Sums Proofs.SelectFacts.
From SaoVerif Require Export Proofs.Outcome.
From RecordUpdate Require Import RecordUpdate.
Import RecordSetNotations.

(** * The compositional predicate *)
(* a panic discards the state, so nothing is asked of it; [m] may hang only if [h] is true *)
Definition mok {A} (R : State -> State -> Prop) (h : bool) (m : M A) : Prop :=
  forall s, match m s with
            | Ok _ s' => R s s'
            | Err _ s' => R s s'
            | Panic _ => True
            | Hang => h = true
            end.

Definition keeps {T A} (f : State -> T) (m : M A) : Prop :=
  forall s, match m s with Ok _ s' => f s' = f s | Err _ s' => f s' = f s | Panic _ => True | Hang => True end.

Definition nohang {A} (m : M A) : Prop := forall s, m s <> Hang.

Definition eqon {T} (f : State -> T) (s s' : State) : Prop := f s' = f s.

Global Instance eqon_preorder {T} (f : State -> T) : PreOrder (eqon f).
Proof. split; [intros s; reflexivity|intros a b c H1 H2; unfold eqon in *; congruence]. Qed.

Lemma keeps_mok {T A} (f : State -> T) (m : M A) : keeps f m <-> mok (eqon f) true m.
Proof.
  unfold keeps, mok, eqon. split; intros H s; specialize (H s); destruct (m s); auto.
Qed.

Lemma mok_keeps {T A} (f : State -> T) h (m : M A) : mok (eqon f) h m -> keeps f m.
Proof. unfold keeps, mok, eqon. intros H s; specialize (H s); destruct (m s); auto. Qed.

Lemma mok_nohang {A} R (m : M A) : mok R false m -> nohang m.
Proof. intros H s E. specialize (H s). rewrite E in H. discriminate. Qed.

Lemma mok_weaken {A} (R R' : State -> State -> Prop) h h' (m : M A) :
  (forall s s', R s s' -> R' s s') -> (h = true -> h' = true) -> mok R h m -> mok R' h' m.
Proof. intros HR Hh H s. specialize (H s). destruct (m s); auto. Qed.

Lemma keeps_sub {T U A} (f : State -> T) (g : State -> U) (m : M A) :
  (forall s s', f s' = f s -> g s' = g s) -> keeps f m -> keeps g m.
Proof. intros Hfg H s. specialize (H s). destruct (m s); auto. Qed.

Lemma keeps_proj {T U A} (f : State -> T) (g : T -> U) (m : M A) : keeps f m -> keeps (fun s => g (f s)) m.
Proof. apply keeps_sub. intros s s' E. rewrite E. reflexivity. Qed.

Definition seed_ok (cx : Ctx) : Prop := 0 <= cx_seed cx < 10 ^ 400.

Section Rules.
  Context (R : State -> State -> Prop) `{!PreOrder R} (h : bool).

  Lemma mok_ret {A} (a : A) : mok R h (ret a).
  Proof. intros s. cbn. reflexivity. Qed.
  Lemma mok_fail {A} e : mok R h (@fail A e).
  Proof. intros s. cbn. reflexivity. Qed.
  Lemma mok_panic {A} e : mok R h (@panic A e).
  Proof. intros s. exact I. Qed.
  Lemma mok_get : mok R h get.
  Proof. intros s. cbn. reflexivity. Qed.
  Lemma mok_gets {A} (f : State -> A) : mok R h (gets f).
  Proof. intros s. cbn. reflexivity. Qed.
  Lemma mok_modify g : (forall s, R s (g s)) -> mok R h (modify g).
  Proof. intros H s. cbn. apply H. Qed.
  Lemma mok_bind {A B} (m : M A) (k : A -> M B) :
    mok R h m -> (forall a, mok R h (k a)) -> mok R h (bind m k).
  Proof.
    intros Hm Hk s. unfold bind. specialize (Hm s). destruct (m s) as [a s1|e s1|e|]; auto.
    specialize (Hk a s1). destruct (k a s1); auto; etransitivity; eauto.
  Qed.
  Lemma mok_try {A} (m : M A) : mok R h m -> mok R h (try_ m).
  Proof. intros Hm s. unfold try_. specialize (Hm s). destruct (m s); auto. Qed.
  Lemma mok_forM_in {A} (l : list A) (f : A -> M unit) : (forall a, In a l -> mok R h (f a)) -> mok R h (forM l f).
  Proof.
    induction l as [|x l IH]; intros Hf; cbn [forM]; [apply mok_ret|].
    apply mok_bind; [apply Hf; left; reflexivity|intros _; apply IH; intros a Ha; apply Hf; right; exact Ha].
  Qed.
  Lemma mok_forM {A} (l : list A) (f : A -> M unit) : (forall a, mok R h (f a)) -> mok R h (forM l f).
  Proof. intros Hf. apply mok_forM_in. auto. Qed.
  Lemma mok_bind_get {A} (k : State -> M A) :
    (forall s, match k s s with Ok _ s' | Err _ s' => R s s' | Panic _ => True | Hang => h = true end) ->
    mok R h (bind get k).
  Proof. intros H s. unfold bind, get. apply H. Qed.
  (* a test is split by a rule: [destruct] would abstract it over the whole remaining program at every step,
     and no relation needs to know which way it went beyond the equation the rule hands over *)
  Lemma mok_if {A} (c : bool) (m1 m2 : M A) :
    (c = true -> mok R h m1) -> (c = false -> mok R h m2) -> mok R h (if c then m1 else m2).
  Proof. destruct c; auto. Qed.
  Lemma mok_option {A B} (o : option B) (m1 : B -> M A) (m2 : M A) :
    (forall b, o = Some b -> mok R h (m1 b)) -> (o = None -> mok R h m2) ->
    mok R h (match o with Some b => m1 b | None => m2 end).
  Proof. destruct o; auto. Qed.
  Lemma mok_fun {A} (F : State -> M A) : (forall s0, mok R h (F s0)) -> mok R h (fun s => F s s).
  Proof. intros H s. apply (H s s). Qed.

  (** the leaves that are not written with [modify] *)
  Lemma mok_send_strict f t a :
    (forall s, 0 < a -> a <= balance s f -> R s (move f t a s)) -> mok R h (send_strict f t a).
  Proof.
    intros H s. unfold send_strict. destruct (a <=? 0) eqn:E1; [reflexivity|].
    destruct (balance s f <? a) eqn:E2; [reflexivity|]. apply H; lia.
  Qed.
  Lemma mok_send_lenient f t a :
    (forall s, 0 < a -> a <= balance s f -> R s (move f t a s)) -> mok R h (send_lenient f t a).
  Proof. intros H s. unfold send_lenient. destruct (a =? 0); [cbn; reflexivity|apply mok_send_strict, H]. Qed.
  (* the registry write is followed by a panic, which discards it *)
  Lemma mok_send_to_did_balances md d amt : mok R h (send_to_did_balances md d amt).
  Proof. intros s. unfold send_to_did_balances. destruct (amt =? 0); [cbn; reflexivity|exact I]. Qed.
  (* the selection writes the round counter and nothing else; it returns for seeds below 10^400 *)
  Lemma mok_random_sp_m cx count ignore size :
    seed_ok cx \/ h = true -> (forall s r, R s (s <| round := r |>)) ->
    mok R h (random_sp_m cx count ignore size).
  Proof.
    intros Hh Hr s. unfold random_sp_m, bind, get.
    destruct (random_sp _ _ _ _ _ _ _) as [[sps r]| |] eqn:E; cbn; try exact I; [apply Hr|].
    destruct Hh as [[H0 H1]| ->]; [|reflexivity].
    exfalso. exact (random_sp_terminates _ _ _ _ _ _ _ H0 H1 E).
  Qed.
End Rules.

Lemma keeps_ret {T A} (f : State -> T) (a : A) : keeps f (ret a).
Proof. apply keeps_mok, mok_ret, _. Qed.
Lemma keeps_fail {T A} (f : State -> T) e : keeps f (@fail A e).
Proof. apply keeps_mok, mok_fail, _. Qed.
Lemma keeps_panic {T A} (f : State -> T) e : keeps f (@panic A e).
Proof. apply keeps_mok, mok_panic. Qed.
Lemma keeps_get {T} (f : State -> T) : keeps f get.
Proof. apply keeps_mok, mok_get, _. Qed.
Lemma keeps_gets {T A} (f : State -> T) (g : State -> A) : keeps f (gets g).
Proof. apply keeps_mok, mok_gets, _. Qed.
Lemma keeps_modify {T} (f : State -> T) g : (forall s, f (g s) = f s) -> keeps f (modify g).
Proof. intros H. apply keeps_mok, mok_modify. exact H. Qed.
Lemma keeps_bind {T A B} (f : State -> T) (m : M A) (k : A -> M B) :
  keeps f m -> (forall a, keeps f (k a)) -> keeps f (bind m k).
Proof. intros H1 H2. apply keeps_mok, mok_bind; try exact _; [apply keeps_mok, H1|intros a; apply keeps_mok, H2]. Qed.
Lemma keeps_try {T A} (f : State -> T) (m : M A) : keeps f m -> keeps f (try_ m).
Proof. intros H. apply keeps_mok, mok_try, keeps_mok, H. Qed.
Lemma keeps_forM {T A} (f : State -> T) (l : list A) (g : A -> M unit) :
  (forall a, keeps f (g a)) -> keeps f (forM l g).
Proof. intros H. apply keeps_mok, mok_forM; try exact _; intros a; apply keeps_mok, H. Qed.
Lemma keeps_if {T A} (f : State -> T) (b : bool) (m1 m2 : M A) :
  keeps f m1 -> keeps f m2 -> keeps f (if b then m1 else m2).
Proof. destruct b; auto. Qed.
Lemma keeps_option {T A B} (f : State -> T) (o : option B) (m1 : B -> M A) (m2 : M A) :
  (forall b, keeps f (m1 b)) -> keeps f m2 -> keeps f (match o with Some b => m1 b | None => m2 end).
Proof. destruct o; auto. Qed.

Lemma nohang_mok {A} (m : M A) : nohang m <-> mok (fun _ _ => True) false m.
Proof.
  split; [|apply mok_nohang]. intros H s. specialize (H s). destruct (m s); auto; try congruence.
Qed.

(** * The tactic *)
(* Side conditions [R s (g s)] of a [modify g]. For a frame [eqon f] the written field is not the projected
   one, which computation shows; what holds of another relation is registered in the hint base [mokside]
   next to the relation. *)
Create HintDb mokside discriminated.
Ltac mok_side :=
  first [ solve [auto 1 with mokside nocore]
        | reflexivity
        | progress (unfold eqon); first [reflexivity | cbn; reflexivity | unfold set; simpl; reflexivity
                                        | repeat case_match; reflexivity]
        | cbn; reflexivity
        | unfold set; simpl; reflexivity ].

Create HintDb mok discriminated.

(* One step along the syntax of a monadic term. [side] is run on the condition [R s (g s)] of a
   [modify g]; [known] must close the calls of functions that have a lemma of their own. *)
Ltac mok_walk1 side known :=
  lazymatch goal with
  | |- mok ?R ?h (bind ?m ?k) => refine (mok_bind R h m k _ _); [ | intros ?]
  | |- mok _ _ (ret _) => apply mok_ret; try exact _
  | |- mok _ _ (fail _) => apply mok_fail; try exact _
  | |- mok _ _ (panic _) => apply mok_panic
  | |- mok _ _ get => apply mok_get; try exact _
  | |- mok _ _ (gets _) => apply mok_gets; try exact _
  | |- mok _ _ (modify _) => apply mok_modify; intros ?; side
  | |- mok _ _ (try_ _) => apply mok_try
  | |- mok _ _ (forM _ _) => apply mok_forM; try exact _; intros ?
  | |- mok _ _ (let _ := _ in _) => cbv zeta
  | |- mok ?R ?h (if ?c then ?m1 else ?m2) =>
      first [ refine (mok_if R h c m1 m2 _ _); intros ? | is_var c; destruct c | destruct c eqn:? ]
  | |- mok ?R ?h (match ?o with Some b => @?m1 b | None => ?m2 end) =>
      first [ is_var o; destruct o | refine (mok_option R h o m1 m2 _ _); [intros ? ?|intros ?] | destruct o eqn:? ]
  | |- mok _ _ (match ?x with _ => _ end) => first [ is_var x; destruct x | destruct x eqn:? ]
  | |- mok _ _ _ => solve [known]
  end.
Ltac mok_walk side known := repeat mok_walk1 side known.

Ltac mok_tac := mok_walk ltac:(try mok_side) ltac:(auto with mok).

(* one-step unfolding of a local [fix] applied to a constructor (no delta: named
   combinators stay folded) *)
Ltac fix_unfold := lazy beta match fix.

(* [mok] of a local loop [(fix go l a := ...) l0 a0]: by induction on the list *)
Ltac mok_loop :=
  lazymatch goal with
  | |- mok ?R ?h (?F ?l ?a) =>
      let HF := fresh "HF" in
      assert (HF : forall l' a', mok R h (F l' a'));
      [ let ll := fresh "ll" in let x := fresh "x" in let IH := fresh "IH" in
        intros ll; induction ll as [|x ll IH]; intros ?; fix_unfold
      | apply HF ]
  end.

Lemma mok_reward_age R `{!PreOrder R} h p : mok R h (reward_age p).
Proof. unfold reward_age. mok_tac. Qed.

Lemma sum_bal_move from to amt s : sum_bal (move from to amt s) = sum_bal s.
Proof.
  unfold sum_bal, move, balance. cbn.
  rewrite !sum_map_insert.
  destruct (decide (from = to)) as [->|Hne].
  - rewrite lookup_insert. cbn. destruct (bal s !! to); cbn; lia.
  - rewrite lookup_insert_ne by exact Hne. destruct (bal s !! to), (bal s !! from); cbn; lia.
Qed.

(** * The projection kept by every handler of the storage modules *)
(* a transfer changes [bal] but not the sum of all balances, so the sum is what the frame records *)
Definition core (s : State) :=
  (nparams s, vals s, dels s, pg s, did s, faults s, fault_idx s, fishing s, supply s, sum_bal s).

Lemma core_move from to amt s : core (move from to amt s) = core s.
Proof. unfold core. rewrite sum_bal_move. reflexivity. Qed.

(* [Hh]: provider selection returns only for seeds below 10^400; a statement that allows hanging ([h = true])
   needs no bound on the seed, one that excludes it ([h = false], [step_never_hangs]) does *)
Section Core.
  Context (cx : Ctx) (h : bool) (Hh : seed_ok cx \/ h = true).
  Local Notation RC := (eqon core).

  Lemma send_strict_ok f t a : mok RC h (send_strict f t a).
  Proof. apply mok_send_strict; [exact _|]. intros s _ _. apply core_move. Qed.
  Hint Resolve send_strict_ok : mok.
  Lemma send_lenient_ok f t a : mok RC h (send_lenient f t a).
  Proof. apply mok_send_lenient; [exact _|]. intros s _ _. apply core_move. Qed.
  Hint Resolve send_lenient_ok : mok.
  Lemma coin_sub_ok a b : mok RC h (coin_sub a b).
  Proof. unfold coin_sub. mok_tac. Qed.
  Hint Resolve coin_sub_ok : mok.

  Lemma reward_age_ok p : mok RC h (reward_age p).
  Proof. apply mok_reward_age, _. Qed.
  Lemma end_block_node_ok : mok RC h (end_block_node cx).
  Proof. unfold end_block_node, do_penalty. mok_tac. Qed.
  Lemma node_create_ok c : mok RC h (node_create cx c).
  Proof. unfold node_create. mok_tac. Qed.
  Lemma node_reset_ok m : mok RC h (node_reset cx m).
  Proof. unfold node_reset. mok_tac. Qed.
  Lemma add_vstorage_ok c sz : mok RC h (add_vstorage c sz).
  Proof. unfold add_vstorage. mok_tac. Qed.
  Lemma remove_vstorage_ok c sz : mok RC h (remove_vstorage c sz).
  Proof. unfold remove_vstorage. mok_tac. Qed.
  Lemma repay_debt_ok sp rw : mok RC h (repay_debt sp rw).
  Proof. unfold repay_debt. mok_tac. Qed.
  Hint Resolve repay_debt_ok : mok.
  Lemma shard_pledge_ok id sh price : mok RC h (shard_pledge id sh price).
  Proof. unfold shard_pledge. mok_tac. Qed.
  Hint Resolve shard_pledge_ok : mok.
  Lemma shard_release_ok sp sh : mok RC h (shard_release sp sh).
  Proof. unfold shard_release. mok_tac. Qed.
  Hint Resolve shard_release_ok : mok.
  Lemma market_claim_ok sp : mok RC h (market_claim cx sp).
  Proof. unfold market_claim. mok_tac. Qed.
  Hint Resolve market_claim_ok : mok.
  Lemma claim_reward_ok c : mok RC h (claim_reward cx c).
  Proof. unfold claim_reward. mok_tac. Qed.
  Lemma increase_reputation_ok n v : mok RC h (increase_reputation n v).
  Proof. unfold increase_reputation. mok_tac. Qed.
  Hint Resolve increase_reputation_ok : mok.
  Lemma random_sp_m_ok count ignore size : mok RC h (random_sp_m cx count ignore size).
  Proof. apply mok_random_sp_m; [exact Hh|reflexivity]. Qed.
  Hint Resolve random_sp_m_ok : mok.

  Lemma send_to_did_balances_ok md d amt : mok RC h (send_to_did_balances md d amt).
  Proof. apply mok_send_to_did_balances, _. Qed.
  Hint Resolve send_to_did_balances_ok : mok.
  Lemma worker_release_ok o sh : mok RC h (worker_release cx o sh).
  Proof. unfold worker_release. mok_tac. Qed.
  Hint Resolve worker_release_ok : mok.
  Lemma worker_append_ok o sh : mok RC h (worker_append cx o sh).
  Proof. unfold worker_append. mok_tac. Qed.
  Hint Resolve worker_append_ok : mok.
  Lemma market_deposit_ok o : mok RC h (market_deposit o).
  Proof. unfold market_deposit. mok_tac. Qed.
  Hint Resolve market_deposit_ok : mok.
  Lemma market_withdraw_ok oid o : mok RC h (market_withdraw cx oid o).
  Proof. unfold market_withdraw. mok_tac. mok_loop; mok_tac. Qed.
  Hint Resolve market_withdraw_ok : mok.
  Lemma append_order_ok o : mok RC h (append_order o).
  Proof. unfold append_order. mok_tac. Qed.
  Hint Resolve append_order_ok : mok.
  Lemma append_shard_ok sh : mok RC h (append_shard sh).
  Proof. unfold append_shard. mok_tac. Qed.
  Hint Resolve append_shard_ok : mok.
  Lemma new_shard_task_ok oid o p : mok RC h (new_shard_task oid o p).
  Proof. unfold new_shard_task. mok_tac. Qed.
  Hint Resolve new_shard_task_ok : mok.
  Lemma gen_shards_ok oid sps : forall o, mok RC h (gen_shards oid o sps).
  Proof. induction sps as [|sp sps IH]; intros o; cbn [gen_shards]; mok_tac. Qed.
  Hint Resolve gen_shards_ok : mok.
  Lemma generate_shards_ok oid o sps : mok RC h (generate_shards oid o sps).
  Proof. unfold generate_shards. mok_tac. Qed.
  Hint Resolve generate_shards_ok : mok.
  Lemma new_order_ok o sps : mok RC h (new_order cx o sps).
  Proof. unfold new_order. mok_tac. Qed.
  Hint Resolve new_order_ok : mok.
  Lemma renew_order_ok o : mok RC h (renew_order o).
  Proof. unfold renew_order. mok_tac. Qed.
  Hint Resolve renew_order_ok : mok.
  Lemma order_terminate_ok oid refund : mok RC h (order_terminate oid refund).
  Proof. unfold order_terminate. mok_tac. Qed.
  Hint Resolve order_terminate_ok : mok.
  Lemma refund_order_ok oid : mok RC h (refund_order oid).
  Proof. unfold refund_order. mok_tac. Qed.
  Hint Resolve refund_order_ok : mok.
  Lemma set_data_expire_ok d a : mok RC h (set_data_expire d a).
  Proof. unfold set_data_expire. mok_tac. Qed.
  Hint Resolve set_data_expire_ok : mok.
  Lemma remove_data_expire_ok d a : mok RC h (remove_data_expire d a).
  Proof. unfold remove_data_expire. mok_tac. Qed.
  Hint Resolve remove_data_expire_ok : mok.
  Lemma new_meta_ok o d m : mok RC h (new_meta cx o d m).
  Proof. unfold new_meta. mok_tac. Qed.
  Hint Resolve new_meta_ok : mok.
  Lemma reset_meta_duration_ok d m : mok RC h (reset_meta_duration cx d m).
  Proof. unfold reset_meta_duration. mok_tac. Qed.
  Hint Resolve reset_meta_duration_ok : mok.
  Lemma extend_meta_duration_ok d e : mok RC h (extend_meta_duration d e).
  Proof. unfold extend_meta_duration. mok_tac. Qed.
  Hint Resolve extend_meta_duration_ok : mok.
  Lemma delete_meta_ok d : mok RC h (delete_meta d).
  Proof. unfold delete_meta. mok_tac. Qed.
  Hint Resolve delete_meta_ok : mok.
  Lemma model_terminate_order_ok oid o : mok RC h (model_terminate_order cx oid o).
  Proof. unfold model_terminate_order. mok_tac. Qed.
  Hint Resolve model_terminate_order_ok : mok.
  Lemma remove_shards_ok ids : mok RC h (remove_shards ids).
  Proof. unfold remove_shards. mok_tac. Qed.
  Hint Resolve remove_shards_ok : mok.
  Lemma force_push_loop_ok lc ro : forall acc, mok RC h (force_push_loop cx ro lc acc).
  Proof. induction ro as [|oid ro IH]; intros acc; cbn [force_push_loop]; mok_tac. Qed.
  Hint Resolve force_push_loop_ok : mok.
  Lemma update_meta_ok oid o : mok RC h (update_meta cx oid o).
  Proof. unfold update_meta. mok_tac. Qed.
  Hint Resolve update_meta_ok : mok.
  Lemma update_meta_status_commit_ok oid o : mok RC h (update_meta_status_commit cx oid o).
  Proof. unfold update_meta_status_commit. mok_tac. Qed.
  Hint Resolve update_meta_status_commit_ok : mok.
  Lemma rollback_meta_ok d : mok RC h (rollback_meta cx d).
  Proof. unfold rollback_meta. mok_tac. Qed.
  Hint Resolve rollback_meta_ok : mok.
  Lemma cancel_order_ok oid : mok RC h (cancel_order cx oid).
  Proof. unfold cancel_order. mok_tac. Qed.
  Hint Resolve cancel_order_ok : mok.
  Lemma update_permission_ok ow d ro rw : mok RC h (update_permission ow d ro rw).
  Proof. unfold update_permission. mok_tac. Qed.
  Hint Resolve update_permission_ok : mok.
  Lemma end_block_model_ok : mok RC h (end_block_model cx).
  Proof. unfold end_block_model. mok_tac. Qed.

  Lemma set_timeout_block_ok oid a : mok RC h (set_timeout_block oid a).
  Proof. unfold set_timeout_block. mok_tac. Qed.
  Hint Resolve set_timeout_block_ok : mok.
  Lemma set_expired_shard_block_ok sid a : mok RC h (set_expired_shard_block sid a).
  Proof. unfold set_expired_shard_block. mok_tac. Qed.
  Hint Resolve set_expired_shard_block_ok : mok.
  Lemma get_sps_ok o d : mok RC h (get_sps cx o d).
  Proof. unfold get_sps. mok_tac. Qed.
  Hint Resolve get_sps_ok : mok.
  Lemma sao_store_ok m : mok RC h (sao_store cx m).
  Proof. unfold sao_store. mok_tac. Qed.
  Lemma sao_ready_ok c p oid : mok RC h (sao_ready cx c p oid).
  Proof. unfold sao_ready. mok_tac. Qed.
  Lemma complete_migration_ok oid o sid sh : mok RC h (complete_migration cx oid o sid sh).
  Proof. unfold complete_migration. mok_tac. Qed.
  Hint Resolve complete_migration_ok : mok.
  Lemma sao_complete_ok c p oid cid sz ok : mok RC h (sao_complete cx c p oid cid sz ok).
  Proof. unfold sao_complete. mok_tac. Qed.
  Lemma sao_cancel_ok c p oid : mok RC h (sao_cancel cx c p oid).
  Proof. unfold sao_cancel. mok_tac. Qed.
  Lemma renew_one_ok m sd d : mok RC h (renew_one cx m sd d).
  Proof. unfold renew_one. mok_tac. mok_loop; mok_tac. Qed.
  Hint Resolve renew_one_ok : mok.
  Lemma sao_renew_ok m : mok RC h (sao_renew cx m).
  Proof. unfold sao_renew. mok_tac. Qed.
  Lemma sao_terminate_ok c p ow d sg : mok RC h (sao_terminate cx c p ow d sg).
  Proof. unfold sao_terminate. mok_tac. mok_loop; mok_tac. Qed.
  Lemma migrate_one_ok p d : mok RC h (migrate_one cx p d).
  Proof. unfold migrate_one. mok_tac. mok_loop; mok_tac. Qed.
  Hint Resolve migrate_one_ok : mok.
  Lemma sao_migrate_ok c p d : mok RC h (sao_migrate cx c p d).
  Proof. unfold sao_migrate. mok_tac. Qed.
  Lemma sao_update_permission_ok c p ow d ro rw sg v : mok RC h (sao_update_permission cx c p ow d ro rw sg v).
  Proof. unfold sao_update_permission. mok_tac. Qed.
  Lemma handle_timeout_order_ok oid : mok RC h (handle_timeout_order cx oid).
  Proof. unfold handle_timeout_order. mok_tac. all: try (mok_loop; mok_tac). Qed.
  Hint Resolve handle_timeout_order_ok : mok.
  Lemma handle_expired_shard_ok sid : mok RC h (handle_expired_shard cx sid).
  Proof. unfold handle_expired_shard. mok_tac. Qed.
  Hint Resolve handle_expired_shard_ok : mok.
  Lemma end_block_sao_ok : mok RC h (end_block_sao cx).
  Proof. unfold end_block_sao. mok_tac. Qed.
End Core.

(** * The handlers outside the common frame *)
(* everything but the DID registry *)
Definition nodid (s : State) :=
  (nodes s, pledges s, debts s, pool s, round s, faults s, fault_idx s, fishing s, nparams s, orders s, order_count s,
   shards s, shard_count s, metas s, models s, expdata s, timeouts s, expshards s, workers s, bal s, supply s,
   vals s, dels s, pg s).

Lemma lift_did_ok cx o h : mok (eqon nodid) h (lift_did cx o).
Proof. intros s. unfold lift_did. destruct (did_handle _ _ _); reflexivity. Qed.

(* everything but the fault tables and the fishing rewards *)
Definition nofault (s : State) :=
  (did s, nodes s, pledges s, debts s, pool s, round s, nparams s, orders s, order_count s,
   shards s, shard_count s, metas s, models s, expdata s, timeouts s, expshards s, workers s, bal s, supply s,
   vals s, dels s, pg s).

Lemma set_fault_ok h k f : mok (eqon nofault) h (set_fault k f).
Proof. unfold set_fault. mok_tac. Qed.
Global Hint Resolve set_fault_ok : mok.
Lemma sao_report_faults_ok cx h c p fl : mok (eqon nofault) h (sao_report_faults cx c p fl).
Proof. unfold sao_report_faults. mok_tac. Qed.
Lemma sao_recover_faults_ok cx h c p fl : mok (eqon nofault) h (sao_recover_faults cx c p fl).
Proof. unfold sao_recover_faults. mok_tac. Qed.

Definition nostake (s : State) :=
  (did s, pledges s, debts s, pool s, round s, faults s, fault_idx s, fishing s, nparams s, orders s, order_count s,
   shards s, shard_count s, metas s, models s, expdata s, timeouts s, expshards s, workers s, supply s).

Lemma set_role_ok h c r v : mok (eqon nostake) h (set_role c r v).
Proof. unfold set_role. mok_tac. Qed.
Global Hint Resolve set_role_ok : mok.
Lemma verify_super_ok h v a b : mok (eqon nostake) h (verify_super v a b).
Proof. unfold verify_super. mok_tac. Qed.
Global Hint Resolve verify_super_ok : mok.
Lemma st_event_ok h e : mok (eqon nostake) h (st_event e).
Proof. unfold st_event. mok_tac. Qed.
Global Hint Resolve st_event_ok : mok.
Lemma staking_tx_ok h evs : mok (eqon nostake) h (staking_tx evs).
Proof. unfold staking_tx. mok_tac. Qed.

(* the block reward: mints, and updates the pool *)
Definition nomint (s : State) :=
  (did s, nodes s, pledges s, debts s, round s, faults s, fault_idx s, fishing s, nparams s, orders s, order_count s,
   shards s, shard_count s, metas s, models s, expdata s, timeouts s, expshards s, workers s,
   vals s, dels s, pg s, sum_bal s - supply s).

Lemma sum_bal_mint s k a :
  sum_map (fun x : Z => x) (<[k := balance s k + a]> (bal s)) = sum_bal s + a.
Proof.
  rewrite sum_map_insert. unfold sum_bal, balance. destruct (bal s !! k); cbn; lia.
Qed.

Lemma mint_ok h m a : mok (eqon nomint) h (mint m a).
Proof.
  intros s. unfold mint. destruct (a <=? 0); [reflexivity|].
  unfold eqon, nomint. cbn. unfold sum_bal at 1. cbn. rewrite sum_bal_mint.
  f_equal. lia.
Qed.
Global Hint Resolve mint_ok : mok.
Lemma begin_block_ok cx h : mok (eqon nomint) h (begin_block cx).
Proof. unfold begin_block. mok_tac. apply mok_reward_age; exact _. Qed.

Definition supply_le (s s' : State) : Prop := supply s <= supply s'.
Global Instance supply_le_preorder : PreOrder supply_le.
Proof. split; [intros s; unfold supply_le; lia|intros a b c; unfold supply_le; lia]. Qed.
Global Hint Extern 1 (supply_le _ _) => apply Z.le_refl : mokside.
Lemma begin_block_supply_ok cx h : mok supply_le h (begin_block cx).
Proof.
  unfold begin_block. mok_tac; try (apply mok_reward_age; exact _); try (apply Z.le_refl).
  intros s. unfold mint. destruct (_ <=? 0) eqn:E; unfold supply_le; [lia|].
  apply Z.leb_gt in E. unfold set; simpl. lia.
Qed.
(** * From handlers to [step] *)
(* the state a rejected transaction leaves: the store of [s], the process variable of [s'] *)
Definition with_pg (s : State) (p : Z) : State :=
  mkState (did s) (nodes s) (pledges s) (debts s) (pool s) (round s) (faults s) (fault_idx s) (fishing s)
          (nparams s) (orders s) (order_count s) (shards s) (shard_count s) (metas s) (models s) (expdata s)
          (timeouts s) (expshards s) (workers s) (bal s) (supply s) (vals s) (dels s) p.

Lemma deliver_state {A} (m : M A) s :
  (deliver m s).1.1 = match m s with Ok _ s' => s' | Err _ s' => with_pg s (pg s') | Panic _ => s | Hang => s end.
Proof. unfold deliver. destruct (m s); reflexivity. Qed.

Lemma block_phase_state {A} (m : M A) s :
  (block_phase m s).1.1 = match m s with Ok _ s' => s' | Err _ s' => s' | Panic _ => s | Hang => s end.
Proof. unfold block_phase. destruct (m s); reflexivity. Qed.

Lemma step_state cx s op :
  fst (step cx s op) =
  match op with
  | OBeginBlock => (block_phase (begin_block cx) s).1.1
  | OEndBlock evs => (block_phase (end_block cx evs) s).1.1
  | OSimulate evs => match staking_tx evs s with Ok _ s' | Err _ s' => with_pg s (pg s') | _ => s end
  | _ => match tx_of cx op with Some m => (deliver m s).1.1 | None => s end
  end.
Proof.
  destruct op; cbn [step tx_of];
    try (match goal with |- context [deliver ?m s] => destruct (deliver m s) as [[? ?] ?] end; reflexivity);
    try (match goal with |- context [block_phase ?m s] => destruct (block_phase m s) as [[? ?] ?] end; reflexivity).
  destruct (staking_tx evs s); reflexivity.
Qed.

Lemma step_rel (R : State -> State -> Prop) `{!PreOrder R} (P : Op -> Prop) cx :
  (forall s s', R s s' -> R s (with_pg s (pg s'))) ->
  (forall evs, P (OSimulate evs) -> forall s p, R s (with_pg s p)) ->
  (P OBeginBlock -> mok R true (begin_block cx)) ->
  (forall evs, P (OEndBlock evs) -> mok R true (end_block cx evs)) ->
  (forall op m, P op -> tx_of cx op = Some m -> mok R true m) ->
  forall s op, P op -> R s (fst (step cx s op)).
Proof.
  intros Hpg Hsim Hbb Heb Htx s op HP. rewrite step_state.
  assert (Hblk : forall A (m : M A), mok R true m -> R s (block_phase m s).1.1).
  { intros A m Hm. rewrite block_phase_state. specialize (Hm s). destruct (m s); auto; reflexivity. }
  assert (Hdel : forall m, tx_of cx op = Some m -> R s (deliver m s).1.1).
  { intros m Hm. rewrite deliver_state. specialize (Htx op m HP Hm s). destruct (m s); auto; reflexivity. }
  destruct op; try (apply Hdel; reflexivity).
  - apply Hblk, Hbb, HP.
  - apply Hblk, Heb, HP.
  - destruct (staking_tx evs s); try reflexivity; eapply Hsim; exact HP.
Qed.

Lemma step_keeps {T} (f : State -> T) (P : Op -> Prop) cx :
  (forall s s', f s' = f s -> f (with_pg s (pg s')) = f s) ->
  (forall evs, P (OSimulate evs) -> forall s p, f (with_pg s p) = f s) ->
  (P OBeginBlock -> keeps f (begin_block cx)) ->
  (forall evs, P (OEndBlock evs) -> keeps f (end_block cx evs)) ->
  (forall op m, P op -> tx_of cx op = Some m -> keeps f m) ->
  forall s op, P op -> f (fst (step cx s op)) = f s.
Proof.
  intros Hpg Hsim Hbb Heb Htx s op HP.
  apply (step_rel (eqon f) P cx); auto.
  - intros H. apply keeps_mok, Hbb, H.
  - intros evs H. apply keeps_mok, Heb, H.
  - intros op' m H E. apply keeps_mok, (Htx op' m H E).
Qed.

Lemma mok_sub {T U A} (f : State -> T) (g : State -> U) h (m : M A) :
  (forall s s', f s' = f s -> g s' = g s) -> mok (eqon f) h m -> keeps g m.
Proof. intros Hfg H. eapply keeps_sub; [exact Hfg|]. eapply mok_keeps, H. Qed.

Ltac sub_tac :=
  let s := fresh "s" in let s' := fresh "s'" in let E := fresh "E" in
  intros s s' E; injection E; intros; try reflexivity; try congruence.

Definition core_op (op : Op) : bool :=
  match op with
  | ODid _ | OReportFaults _ _ _ | ORecoverFaults _ _ _ | OStaking _ | OSimulate _ | OBeginBlock | OEndBlock _ => false
  | _ => true
  end.

Lemma tx_core cx h (Hh : seed_ok cx \/ h = true) op m :
  core_op op = true -> tx_of cx op = Some m -> mok (eqon core) h m.
Proof.
  intros Hc E. destruct op; try discriminate Hc; cbn [tx_of] in E; injection E as <-.
  - apply node_create_ok.
  - apply node_reset_ok.
  - apply add_vstorage_ok.
  - apply remove_vstorage_ok.
  - apply mok_bind; try exact _; [apply claim_reward_ok|intros; apply mok_ret; exact _].
  - apply sao_store_ok; exact Hh.
  - apply sao_ready_ok; exact Hh.
  - apply sao_complete_ok; exact Hh.
  - apply sao_cancel_ok.
  - apply sao_renew_ok.
  - apply sao_terminate_ok.
  - apply sao_migrate_ok; exact Hh.
  - apply sao_update_permission_ok.
  - apply send_strict_ok.
Qed.

Lemma end_block_tail_ok cx h (Hh : seed_ok cx \/ h = true) :
  mok (eqon core) h (end_block_sao cx ;;; end_block_node cx ;;; end_block_model cx).
Proof.
  apply mok_bind; try exact _; [apply end_block_sao_ok; exact Hh|intros _].
  apply mok_bind; try exact _; [apply end_block_node_ok|intros _; apply end_block_model_ok].
Qed.

Lemma step_keeps_all {T} (f : State -> T) (P : Op -> Prop) cx :
  (forall s s', f s' = f s -> f (with_pg s (pg s')) = f s) ->
  (forall evs, P (OSimulate evs) -> forall s p, f (with_pg s p) = f s) ->
  (forall s s', core s' = core s -> f s' = f s) ->
  (P OBeginBlock -> forall s s', nomint s' = nomint s -> f s' = f s) ->
  (forall o, P (ODid o) -> forall s s', nodid s' = nodid s -> f s' = f s) ->
  (forall c p fl, P (OReportFaults c p fl) \/ P (ORecoverFaults c p fl) -> forall s s', nofault s' = nofault s -> f s' = f s) ->
  (forall evs, P (OStaking evs) \/ (P (OEndBlock evs) /\ evs <> []) -> forall s s', nostake s' = nostake s -> f s' = f s) ->
  forall s op, P op -> f (fst (step cx s op)) = f s.
Proof.
  intros Hpg Hsim Hcore Hbb Hdid Hfl Hst.
  apply step_keeps; auto.
  - intros HP. eapply mok_sub; [apply Hbb, HP|apply (begin_block_ok cx true)].
  - intros evs HP. unfold end_block. apply keeps_bind.
    + destruct evs as [|e evs]; [apply keeps_ret|].
      eapply mok_sub; [apply (Hst (e :: evs)); right; split; [exact HP|discriminate]|apply (staking_tx_ok true)].
    + intros _. eapply mok_sub; [apply Hcore|apply (end_block_tail_ok cx true); right; reflexivity].
  - intros op m HP E. destruct (core_op op) eqn:Hc.
    + eapply mok_sub; [apply Hcore|apply (tx_core cx true (or_intror eq_refl) op m Hc E)].
    + destruct op; try discriminate Hc; try discriminate E; cbn [tx_of] in E; injection E as <-.
      * eapply mok_sub; [eapply Hdid, HP|apply (lift_did_ok _ _ true)].
      * eapply mok_sub; [eapply Hfl; left; exact HP|apply (sao_report_faults_ok _ true)].
      * eapply mok_sub; [eapply Hfl; right; exact HP|apply (sao_recover_faults_ok _ true)].
      * eapply mok_sub; [eapply Hst; left; exact HP|apply (staking_tx_ok true)].
Qed.

Definition no_staking (op : Op) : bool :=
  match op with
  | OStaking _ | OSimulate _ => false
  | OEndBlock evs => match evs with [] => true | _ => false end
  | _ => true
  end.

(** * Which tables an operation can change; supply and balances *)
(* configuration and staking tables are never written by the storage modules *)
Theorem step_keeps_nparams : forall cx s op, nparams (fst (step cx s op)) = nparams s.
Proof.
  intros cx s op. apply (step_keeps_all nparams (fun _ => True) cx); auto; intros; try reflexivity;
    match goal with E : _ = _ |- _ => injection E; intros; congruence end.
Qed.
Print Assumptions step_keeps_nparams.

Theorem step_keeps_staking : forall cx s op, no_staking op = true ->
  vals (fst (step cx s op)) = vals s /\ dels (fst (step cx s op)) = dels s /\ pg (fst (step cx s op)) = pg s.
Proof.
  intros cx s op Hop.
  assert (H : (fun s => (vals s, dels s, pg s)) (fst (step cx s op)) = (fun s => (vals s, dels s, pg s)) s).
  { apply (step_keeps_all (fun s => (vals s, dels s, pg s)) (fun op => no_staking op = true) cx); [..|exact Hop].
    - intros s0 s' E. injection E; intros. cbn. congruence.
    - intros evs H. discriminate H.
    - sub_tac.
    - intros _. sub_tac.
    - intros o _. sub_tac.
    - intros c p fl _. sub_tac.
    - intros evs [H|[H Hne]]; [discriminate H|]. destruct evs; [contradiction|discriminate H]. }
  cbn beta in H. injection H; auto.
Qed.
Print Assumptions step_keeps_staking.

(* coins are created only by the block reward, never destroyed *)
Theorem step_supply : forall cx s op, op <> OBeginBlock -> supply (fst (step cx s op)) = supply s.
Proof.
  intros cx s op Hop. apply (step_keeps_all supply (fun op => op <> OBeginBlock) cx); auto; intros; try reflexivity;
    try contradiction;
    match goal with E : _ = _ |- _ => injection E; intros; congruence end.
Qed.
Print Assumptions step_supply.

Theorem begin_block_supply : forall cx s, supply s <= supply (fst (step cx s OBeginBlock)).
Proof.
  intros cx s. rewrite step_state, block_phase_state.
  pose proof (begin_block_supply_ok cx true s) as H. destruct (begin_block cx s); auto; unfold supply_le in *; lia.
Qed.
Print Assumptions begin_block_supply.

Theorem step_conserves : forall cx s op, no_staking op = true ->
  sum_bal (fst (step cx s op)) - sum_bal s = supply (fst (step cx s op)) - supply s.
Proof.
  intros cx s op Hop.
  enough (H : (fun s => sum_bal s - supply s) (fst (step cx s op)) = (fun s => sum_bal s - supply s) s) by (cbn beta in H; lia).
  apply (step_keeps_all (fun s => sum_bal s - supply s) (fun op => no_staking op = true) cx); [..|exact Hop].
  - intros s0 s' E. reflexivity.
  - intros evs H. discriminate H.
  - sub_tac.
  - intros _. sub_tac.
  - intros o _ s0 s' E. injection E; intros. unfold sum_bal. congruence.
  - intros c p fl _ s0 s' E. injection E; intros. unfold sum_bal. congruence.
  - intros evs [H|[H Hne]]; [discriminate H|]. destruct evs; [contradiction|discriminate H].
Qed.
Print Assumptions step_conserves.

Theorem step_keeps_did : forall cx s op, (forall o, op <> ODid o) -> did (fst (step cx s op)) = did s.
Proof.
  intros cx s op Hop. apply (step_keeps_all did (fun op => forall o, op <> ODid o) cx); auto; intros; try reflexivity;
    try (match goal with H : forall o, ODid ?x <> ODid o |- _ => exfalso; exact (H x eq_refl) end);
    match goal with E : _ = _ |- _ => injection E; intros; congruence end.
Qed.
Print Assumptions step_keeps_did.

(* C19 frame: fault reports touch only the fault tables and the fishing-reward table *)
Definition fault_frame (s s' : State) : Prop :=
  did s' = did s /\ nodes s' = nodes s /\ pledges s' = pledges s /\ debts s' = debts s /\ pool s' = pool s /\ round s' = round s /\
  orders s' = orders s /\ order_count s' = order_count s /\ shards s' = shards s /\ shard_count s' = shard_count s /\
  metas s' = metas s /\ models s' = models s /\ expdata s' = expdata s /\ timeouts s' = timeouts s /\ expshards s' = expshards s /\
  workers s' = workers s /\ bal s' = bal s /\ supply s' = supply s.

Lemma nofault_frame s s' : nofault s' = nofault s -> fault_frame s s'.
Proof. intros E. injection E; intros. unfold fault_frame. repeat split; assumption. Qed.

Lemma deliver_nofault (m : M unit) s : mok (eqon nofault) true m -> fault_frame s (deliver m s).1.1.
Proof.
  intros H. rewrite deliver_state. specialize (H s).
  destruct (m s); try (unfold fault_frame; repeat split; reflexivity). apply nofault_frame, H.
Qed.

Theorem report_faults_frame : forall cx s c p fl, fault_frame s (fst (step cx s (OReportFaults c p fl))).
Proof. intros. rewrite step_state. cbn [tx_of]. apply deliver_nofault, sao_report_faults_ok. Qed.
Print Assumptions report_faults_frame.

Theorem recover_faults_frame : forall cx s c p fl, fault_frame s (fst (step cx s (ORecoverFaults c p fl))).
Proof. intros. rewrite step_state. cbn [tx_of]. apply deliver_nofault, sao_recover_faults_ok. Qed.
Print Assumptions recover_faults_frame.

Theorem faults_only_by_reports : forall cx s op,
  (forall c p fl, op <> OReportFaults c p fl) -> (forall c p fl, op <> ORecoverFaults c p fl) ->
  faults (fst (step cx s op)) = faults s /\ fault_idx (fst (step cx s op)) = fault_idx s /\ fishing (fst (step cx s op)) = fishing s.
Proof.
  intros cx s op H1 H2.
  assert (H : (fun s => (faults s, fault_idx s, fishing s)) (fst (step cx s op)) = (fun s => (faults s, fault_idx s, fishing s)) s).
  { apply (step_keeps_all (fun s => (faults s, fault_idx s, fishing s))
             (fun op => (forall c p fl, op <> OReportFaults c p fl) /\ (forall c p fl, op <> ORecoverFaults c p fl)) cx);
      [..|split; assumption].
    - intros s0 s' E. reflexivity.
    - intros evs _ s0 p0. reflexivity.
    - sub_tac.
    - intros _. sub_tac.
    - intros o _. sub_tac.
    - intros c p fl [[Ha _]|[_ Hb]]; [exfalso; exact (Ha c p fl eq_refl)|exfalso; exact (Hb c p fl eq_refl)].
    - intros evs _. sub_tac. }
  cbn beta in H. injection H; auto.
Qed.
Print Assumptions faults_only_by_reports.

Theorem report_faults_requires_fishman : forall cx s c p fl s' d,
  step cx s (OReportFaults c p fl) = (s', OutTx COk d) ->
  is_Some (nodes s !! c) /\ is_fishman s c = true.
Proof.
  intros cx s c p fl s' d E.
  apply (step_tx_ok cx s _ (sao_report_faults cx c p fl)) in E; [|reflexivity].
  unfold sao_report_faults, bind, get in E.
  destruct (nodes s !! c) as [n|] eqn:Hn; [|discriminate E].
  destruct (is_fishman s c) eqn:Hf; [|discriminate E]. split; [eexists; reflexivity|reflexivity].
Qed.
Print Assumptions report_faults_requires_fishman.

Theorem recover_faults_requires : forall cx s c p fl s' d,
  step cx s (ORecoverFaults c p fl) = (s', OutTx COk d) ->
  exists n, nodes s !! c = Some n /\
            ((c = p /\ Z.land (n_status n) STATUS_SERVE_STORAGE <> 0) \/ (c <> p /\ is_fishman s c = true)).
Proof.
  intros cx s c p fl s' d E.
  apply (step_tx_ok cx s _ (sao_recover_faults cx c p fl)) in E; [|reflexivity].
  unfold sao_recover_faults, bind, get in E.
  destruct (nodes s !! c) as [n|] eqn:Hn; [|discriminate E]. exists n. split; [reflexivity|].
  destruct (String.eqb c p) eqn:Hcp.
  - apply String.eqb_eq in Hcp. subst p. left. split; [reflexivity|].
    destruct (Z.land (n_status n) STATUS_SERVE_STORAGE =? 0) eqn:Hz; [discriminate E|].
    apply Z.eqb_neq in Hz. exact Hz.
  - apply String.eqb_neq in Hcp. right. split; [exact Hcp|].
    cbn [andb negb] in E. destruct (is_fishman s c) eqn:Hf; [reflexivity|discriminate E].
Qed.
Print Assumptions recover_faults_requires.

(** * Block processing never loops forever *)
Lemma tx_nohang cx op m : seed_ok cx -> tx_of cx op = Some m -> nohang m.
Proof.
  intros Hs E. destruct (core_op op) eqn:Hc.
  - eapply mok_nohang, (tx_core cx false (or_introl Hs) op m Hc E).
  - destruct op; try discriminate Hc; try discriminate E; cbn [tx_of] in E; injection E as <-.
    + eapply mok_nohang, (lift_did_ok _ _ false).
    + eapply mok_nohang, (sao_report_faults_ok _ false).
    + eapply mok_nohang, (sao_recover_faults_ok _ false).
    + eapply mok_nohang, (staking_tx_ok false).
Qed.

Lemma nohang_bind {A B} (m : M A) (k : A -> M B) : nohang m -> (forall a, nohang (k a)) -> nohang (bind m k).
Proof.
  intros H1 H2. apply nohang_mok, mok_bind; [split; auto|apply nohang_mok, H1|intros a; apply nohang_mok, H2].
Qed.

Lemma end_block_nohang cx evs : seed_ok cx -> nohang (end_block cx evs).
Proof.
  intros Hs. unfold end_block. apply nohang_bind; [eapply mok_nohang, (staking_tx_ok false)|intros _].
  eapply mok_nohang, (end_block_tail_ok cx false (or_introl Hs)).
Qed.

Theorem step_never_hangs : forall cx s op s' o, seed_ok cx -> step cx s op = (s', o) ->
  o <> OutTx CHang "" /\ (forall d, o <> OutBlock BHung d) /\ (forall d, o <> OutTx CHang d).
Proof.
  intros cx s op s' o Hs E.
  assert (Hblk : forall A (m : M A) s1 c d, nohang m -> block_phase m s = (s1, c, d) -> c <> BHung).
  { intros A m s1 c d Hm Hb. unfold block_phase in Hb. specialize (Hm s).
    destruct (m s); try contradiction; injection Hb as _ <- _; discriminate. }
  assert (Hdel : forall (m : M unit) s1 c d, nohang m -> deliver m s = (s1, c, d) -> c <> CHang).
  { intros m s1 c d Hm Hb. unfold deliver in Hb. specialize (Hm s).
    destruct (m s); try contradiction; injection Hb as _ <- _; discriminate. }
  assert (Hmain : (forall d, o <> OutBlock BHung d) /\ (forall d, o <> OutTx CHang d)).
  { pose proof (fun m => tx_nohang cx op m Hs) as Htx.
    destruct op; cbn [step tx_of] in E;
      try (match type of E with context [deliver ?m s] =>
             destruct (deliver m s) as [[s1 c1] d1] eqn:Ed; injection E as _ <-;
             assert (Hc : c1 <> CHang) by (eapply (Hdel m), Ed; apply Htx; reflexivity);
             split; intros d0 H0; [discriminate H0|injection H0 as H0 _; contradiction] end).
    - destruct (block_phase (begin_block cx) s) as [[s1 c1] d1] eqn:Ed; injection E as _ <-.
      assert (Hc : c1 <> BHung) by (eapply Hblk, Ed; eapply mok_nohang, (begin_block_ok cx false)).
      split; intros d0 H0; [injection H0 as H0 _; contradiction|discriminate H0].
    - match type of E with context [block_phase ?m s] => destruct (block_phase m s) as [[s1 c1] d1] eqn:Ed end.
      injection E as _ <-.
      assert (Hc : c1 <> BHung) by (eapply Hblk, Ed; apply end_block_nohang, Hs).
      split; intros d0 H0; [injection H0 as H0 _; contradiction|discriminate H0].
    - match type of E with context [staking_tx ?e s] => destruct (staking_tx e s) end;
        injection E as _ <-; split; intros d0 H0; discriminate H0. }
  destruct Hmain as [H1 H2]. split; [apply H2|split; assumption].
Qed.
Print Assumptions step_never_hangs.

(** * Identifiers *)
Definition Rdel (t t' : State) : Prop :=
  order_count t' = order_count t /\ shard_count t' = shard_count t /\
  (forall id, is_Some (orders t' !! id) -> is_Some (orders t !! id)) /\
  (forall id, is_Some (shards t' !! id) -> is_Some (shards t !! id)).

Global Instance Rdel_preorder : PreOrder Rdel.
Proof.
  split.
  - intros t. unfold Rdel. auto.
  - intros a b c (H1 & H2 & H3 & H4) (G1 & G2 & G3 & G4). unfold Rdel.
    split; [congruence|]. split; [congruence|]. split; intros id H; auto.
Qed.

Definition ids4 (t : State) := (orders t, order_count t, shards t, shard_count t).

Lemma Rdel_frame t t' : ids4 t' = ids4 t -> Rdel t t'.
Proof. intros E. injection E as E1 E2 E3 E4. unfold Rdel. rewrite E1, E2, E3, E4. auto. Qed.

Lemma Rdel_move f t a s : Rdel s (move f t a s).
Proof. apply Rdel_frame. reflexivity. Qed.

Lemma Rdel_orders_delete t k : Rdel t (t <| orders ::= delete k |>).
Proof.
  unfold Rdel. cbn. split; [reflexivity|]. split; [reflexivity|]. split; intros id H; [|exact H].
  apply lookup_delete_is_Some in H. tauto.
Qed.
Lemma Rdel_shards_delete t k : Rdel t (t <| shards ::= delete k |>).
Proof.
  unfold Rdel. cbn. split; [reflexivity|]. split; [reflexivity|]. split; intros id H; [exact H|].
  apply lookup_delete_is_Some in H. tauto.
Qed.
Lemma fold_delete_is_Some {A} (ids : list Z) : forall (m : gmap Z A) id,
  is_Some (fold_left (fun m id => delete id m) ids m !! id) -> is_Some (m !! id).
Proof.
  induction ids as [|x ids IH]; intros m id H; cbn in H; [exact H|].
  apply IH in H. apply lookup_delete_is_Some in H. tauto.
Qed.
Lemma Rdel_shards_fold t ids : Rdel t (t <| shards := fold_left (fun m id => delete id m) ids (shards t) |>).
Proof.
  unfold Rdel. cbn. split; [reflexivity|]. split; [reflexivity|]. split; intros id H; [exact H|].
  eapply fold_delete_is_Some, H.
Qed.

Global Hint Extern 1 (Rdel _ _) => apply Rdel_frame; reflexivity : mokside.
Global Hint Resolve Rdel_orders_delete Rdel_shards_delete Rdel_shards_fold : mokside.

Section DelPass.
  Context (cx : Ctx) (h : bool) (Hh : seed_ok cx \/ h = true).
  Local Notation R := (Rdel).
  Lemma send_strict_del f t a : mok R h (send_strict f t a).
  Proof. apply mok_send_strict; [exact _|]. intros s _ _. apply Rdel_move. Qed.
  Hint Resolve send_strict_del : mok.
  Lemma send_lenient_del f t a : mok R h (send_lenient f t a).
  Proof. apply mok_send_lenient; [exact _|]. intros s _ _. apply Rdel_move. Qed.
  Hint Resolve send_lenient_del : mok.
  Lemma coin_sub_del a b : mok R h (coin_sub a b).
  Proof. unfold coin_sub. mok_tac. Qed.
  Hint Resolve coin_sub_del : mok.
  Lemma repay_debt_del sp rw : mok R h (repay_debt sp rw).
  Proof. unfold repay_debt. mok_tac. Qed.
  Hint Resolve repay_debt_del : mok.
  Lemma shard_release_del sp sh : mok R h (shard_release sp sh).
  Proof. unfold shard_release. mok_tac. Qed.
  Hint Resolve shard_release_del : mok.
  Lemma market_claim_del sp : mok R h (market_claim cx sp).
  Proof. unfold market_claim. mok_tac. Qed.
  Hint Resolve market_claim_del : mok.
  Lemma claim_reward_del c : mok R h (claim_reward cx c).
  Proof. unfold claim_reward. mok_tac. Qed.
  Hint Resolve claim_reward_del : mok.
  Lemma increase_reputation_del n v : mok R h (increase_reputation n v).
  Proof. unfold increase_reputation. mok_tac. Qed.
  Hint Resolve increase_reputation_del : mok.
  Lemma random_sp_m_del count ignore size : mok R h (random_sp_m cx count ignore size).
  Proof. apply mok_random_sp_m; [exact Hh|]. intros s r. apply Rdel_frame. reflexivity. Qed.
  Hint Resolve random_sp_m_del : mok.
  Lemma node_create_del c : mok R h (node_create cx c).
  Proof. unfold node_create. mok_tac. Qed.
  Hint Resolve node_create_del : mok.
  Lemma node_reset_del m : mok R h (node_reset cx m).
  Proof. unfold node_reset. mok_tac. Qed.
  Hint Resolve node_reset_del : mok.
  Lemma add_vstorage_del c sz : mok R h (add_vstorage c sz).
  Proof. unfold add_vstorage. mok_tac. Qed.
  Hint Resolve add_vstorage_del : mok.
  Lemma remove_vstorage_del c sz : mok R h (remove_vstorage c sz).
  Proof. unfold remove_vstorage. mok_tac. Qed.
  Hint Resolve remove_vstorage_del : mok.
  Lemma end_block_node_del : mok R h (end_block_node cx ).
  Proof. unfold end_block_node, do_penalty. mok_tac. Qed.
  Hint Resolve end_block_node_del : mok.
  Lemma send_to_did_balances_del md d amt : mok R h (send_to_did_balances md d amt).
  Proof. apply mok_send_to_did_balances, _. Qed.
  Hint Resolve send_to_did_balances_del : mok.
  Lemma worker_release_del o sh : mok R h (worker_release cx o sh).
  Proof. unfold worker_release. mok_tac. Qed.
  Hint Resolve worker_release_del : mok.
  Lemma worker_append_del o sh : mok R h (worker_append cx o sh).
  Proof. unfold worker_append. mok_tac. Qed.
  Hint Resolve worker_append_del : mok.
  Lemma market_deposit_del o : mok R h (market_deposit o).
  Proof. unfold market_deposit. mok_tac. Qed.
  Hint Resolve market_deposit_del : mok.
  Lemma market_withdraw_del oid o : mok R h (market_withdraw cx oid o).
  Proof. unfold market_withdraw. mok_tac. mok_loop; mok_tac. Qed.
  Hint Resolve market_withdraw_del : mok.
  Lemma order_terminate_del oid refund : mok R h (order_terminate oid refund).
  Proof. unfold order_terminate. mok_tac. Qed.
  Hint Resolve order_terminate_del : mok.
  Lemma refund_order_del oid : mok R h (refund_order oid).
  Proof. unfold refund_order. mok_tac. Qed.
  Hint Resolve refund_order_del : mok.
  Lemma set_data_expire_del d a : mok R h (set_data_expire d a).
  Proof. unfold set_data_expire. mok_tac. Qed.
  Hint Resolve set_data_expire_del : mok.
  Lemma remove_data_expire_del d a : mok R h (remove_data_expire d a).
  Proof. unfold remove_data_expire. mok_tac. Qed.
  Hint Resolve remove_data_expire_del : mok.
  Lemma new_meta_del o d m : mok R h (new_meta cx o d m).
  Proof. unfold new_meta. mok_tac. Qed.
  Hint Resolve new_meta_del : mok.
  Lemma reset_meta_duration_del d m : mok R h (reset_meta_duration cx d m).
  Proof. unfold reset_meta_duration. mok_tac. Qed.
  Hint Resolve reset_meta_duration_del : mok.
  Lemma extend_meta_duration_del d e : mok R h (extend_meta_duration d e).
  Proof. unfold extend_meta_duration. mok_tac. Qed.
  Hint Resolve extend_meta_duration_del : mok.
  Lemma delete_meta_del d : mok R h (delete_meta d).
  Proof. unfold delete_meta. mok_tac. Qed.
  Hint Resolve delete_meta_del : mok.
  Lemma model_terminate_order_del oid o : mok R h (model_terminate_order cx oid o).
  Proof. unfold model_terminate_order. mok_tac. Qed.
  Hint Resolve model_terminate_order_del : mok.
  Lemma remove_shards_del ids : mok R h (remove_shards ids).
  Proof. unfold remove_shards. mok_tac. Qed.
  Hint Resolve remove_shards_del : mok.
  Lemma force_push_loop_del lc ro : forall acc, mok R h (force_push_loop cx ro lc acc).
  Proof. induction ro as [|oid ro IH]; intros acc; cbn [force_push_loop]; mok_tac. Qed.
  Hint Resolve force_push_loop_del : mok.
  Lemma update_meta_del oid o : mok R h (update_meta cx oid o).
  Proof. unfold update_meta. mok_tac. Qed.
  Hint Resolve update_meta_del : mok.
  Lemma update_meta_status_commit_del oid o : mok R h (update_meta_status_commit cx oid o).
  Proof. unfold update_meta_status_commit. mok_tac. Qed.
  Hint Resolve update_meta_status_commit_del : mok.
  Lemma rollback_meta_del d : mok R h (rollback_meta cx d).
  Proof. unfold rollback_meta. mok_tac. Qed.
  Hint Resolve rollback_meta_del : mok.
  Lemma cancel_order_del oid : mok R h (cancel_order cx oid).
  Proof. unfold cancel_order. mok_tac. Qed.
  Hint Resolve cancel_order_del : mok.
  Lemma update_permission_del ow d ro rw : mok R h (update_permission ow d ro rw).
  Proof. unfold update_permission. mok_tac. Qed.
  Hint Resolve update_permission_del : mok.
  Lemma end_block_model_del : mok R h (end_block_model cx ).
  Proof. unfold end_block_model. mok_tac. Qed.
  Hint Resolve end_block_model_del : mok.
  Lemma set_timeout_block_del oid a : mok R h (set_timeout_block oid a).
  Proof. unfold set_timeout_block. mok_tac. Qed.
  Hint Resolve set_timeout_block_del : mok.
  Lemma set_expired_shard_block_del sid a : mok R h (set_expired_shard_block sid a).
  Proof. unfold set_expired_shard_block. mok_tac. Qed.
  Hint Resolve set_expired_shard_block_del : mok.
  Lemma get_sps_del o d : mok R h (get_sps cx o d).
  Proof. unfold get_sps. mok_tac. Qed.
  Hint Resolve get_sps_del : mok.
  Lemma sao_cancel_del c p oid : mok R h (sao_cancel cx c p oid).
  Proof. unfold sao_cancel. mok_tac. Qed.
  Hint Resolve sao_cancel_del : mok.
  Lemma sao_terminate_del c p ow d sg : mok R h (sao_terminate cx c p ow d sg).
  Proof. unfold sao_terminate. mok_tac. mok_loop; mok_tac. Qed.
  Hint Resolve sao_terminate_del : mok.
  Lemma sao_update_permission_del c p ow d ro rw sg v : mok R h (sao_update_permission cx c p ow d ro rw sg v).
  Proof. unfold sao_update_permission. mok_tac. Qed.
  Hint Resolve sao_update_permission_del : mok.
End DelPass.

Lemma eqon_Rdel {T A} (f : State -> T) h (m : M A) :
  (forall s s', f s' = f s -> ids4 s' = ids4 s) -> mok (eqon f) h m -> mok Rdel h m.
Proof. intros Hf. apply mok_weaken; [|auto]. intros s s' E. apply Rdel_frame, Hf, E. Qed.

Global Hint Resolve send_strict_del send_lenient_del coin_sub_del repay_debt_del shard_release_del market_claim_del claim_reward_del increase_reputation_del random_sp_m_del node_create_del node_reset_del add_vstorage_del remove_vstorage_del end_block_node_del send_to_did_balances_del worker_release_del worker_append_del market_deposit_del market_withdraw_del order_terminate_del refund_order_del set_data_expire_del remove_data_expire_del new_meta_del reset_meta_duration_del extend_meta_duration_del delete_meta_del model_terminate_order_del remove_shards_del force_push_loop_del update_meta_del update_meta_status_commit_del rollback_meta_del cancel_order_del update_permission_del end_block_model_del set_timeout_block_del set_expired_shard_block_del get_sps_del sao_cancel_del sao_terminate_del sao_update_permission_del : mok.

Lemma nodid_ids4 s s' : nodid s' = nodid s -> ids4 s' = ids4 s.
Proof. intros E; injection E; intros; unfold ids4; congruence. Qed.
Lemma nofault_ids4 s s' : nofault s' = nofault s -> ids4 s' = ids4 s.
Proof. intros E; injection E; intros; unfold ids4; congruence. Qed.
Lemma nostake_ids4 s s' : nostake s' = nostake s -> ids4 s' = ids4 s.
Proof. intros E; injection E; intros; unfold ids4; congruence. Qed.
Lemma nomint_ids4 s s' : nomint s' = nomint s -> ids4 s' = ids4 s.
Proof. intros E; injection E; intros; unfold ids4; congruence. Qed.

Lemma lift_did_del cx o h : mok Rdel h (lift_did cx o).
Proof. apply (eqon_Rdel _ _ _ nodid_ids4), lift_did_ok. Qed.
Lemma sao_report_faults_del cx h c p fl : mok Rdel h (sao_report_faults cx c p fl).
Proof. apply (eqon_Rdel _ _ _ nofault_ids4), sao_report_faults_ok. Qed.
Lemma sao_recover_faults_del cx h c p fl : mok Rdel h (sao_recover_faults cx c p fl).
Proof. apply (eqon_Rdel _ _ _ nofault_ids4), sao_recover_faults_ok. Qed.
Lemma staking_tx_del h evs : mok Rdel h (staking_tx evs).
Proof. apply (eqon_Rdel _ _ _ nostake_ids4), staking_tx_ok. Qed.
Lemma begin_block_del cx h : mok Rdel h (begin_block cx).
Proof. apply (eqon_Rdel _ _ _ nomint_ids4), begin_block_ok. Qed.

(* Two more frames, for the budgets of the loops: a timeout check creates at most one shard per node, and a
    migration at most one per order of the model, so the end blocker must know that the node table, and a
    migration that the metadata table, stays as it was while the loop runs *)
Section NodesPass.
  Context (cx : Ctx) (h : bool) (Hh : seed_ok cx \/ h = true).
  Local Notation R := (eqon nodes).
  Lemma send_strict_nd f t a : mok R h (send_strict f t a).
  Proof. apply mok_send_strict; [exact _|reflexivity]. Qed.
  Hint Resolve send_strict_nd : mok.
  Lemma send_lenient_nd f t a : mok R h (send_lenient f t a).
  Proof. apply mok_send_lenient; [exact _|reflexivity]. Qed.
  Hint Resolve send_lenient_nd : mok.
  Lemma coin_sub_nd a b : mok R h (coin_sub a b).
  Proof. unfold coin_sub. mok_tac. Qed.
  Hint Resolve coin_sub_nd : mok.
  Lemma random_sp_m_nd count ignore size : mok R h (random_sp_m cx count ignore size).
  Proof. apply mok_random_sp_m; [exact Hh|reflexivity]. Qed.
  Hint Resolve random_sp_m_nd : mok.
  Lemma refund_order_nd oid : mok R h (refund_order oid).
  Proof. unfold refund_order. mok_tac. Qed.
  Hint Resolve refund_order_nd : mok.
  Lemma set_data_expire_nd d a : mok R h (set_data_expire d a).
  Proof. unfold set_data_expire. mok_tac. Qed.
  Hint Resolve set_data_expire_nd : mok.
  Lemma remove_data_expire_nd d a : mok R h (remove_data_expire d a).
  Proof. unfold remove_data_expire. mok_tac. Qed.
  Hint Resolve remove_data_expire_nd : mok.
  Lemma reset_meta_duration_nd d m : mok R h (reset_meta_duration cx d m).
  Proof. unfold reset_meta_duration. mok_tac. Qed.
  Hint Resolve reset_meta_duration_nd : mok.
  Lemma remove_shards_nd ids : mok R h (remove_shards ids).
  Proof. unfold remove_shards. mok_tac. Qed.
  Hint Resolve remove_shards_nd : mok.
  Lemma rollback_meta_nd d : mok R h (rollback_meta cx d).
  Proof. unfold rollback_meta. mok_tac. Qed.
  Hint Resolve rollback_meta_nd : mok.
  Lemma cancel_order_nd oid : mok R h (cancel_order cx oid).
  Proof. unfold cancel_order. mok_tac. Qed.
  Hint Resolve cancel_order_nd : mok.
  Lemma set_timeout_block_nd oid a : mok R h (set_timeout_block oid a).
  Proof. unfold set_timeout_block. mok_tac. Qed.
  Hint Resolve set_timeout_block_nd : mok.
  Lemma append_shard_nd sh : mok (eqon nodes) h (append_shard sh).
  Proof. unfold append_shard. mok_tac. Qed.
  Hint Resolve append_shard_nd : mok.
  Lemma new_shard_task_nd oid o p : mok (eqon nodes) h (new_shard_task oid o p).
  Proof. unfold new_shard_task. mok_tac. Qed.
  Hint Resolve new_shard_task_nd : mok.
  Lemma handle_timeout_order_nd oid : mok (eqon nodes) h (handle_timeout_order cx oid).
  Proof. unfold handle_timeout_order. mok_tac. all: try (mok_loop; mok_tac). Qed.
End NodesPass.

Section MetaPass.
  Context (cx : Ctx) (h : bool) (Hh : seed_ok cx \/ h = true).
  Lemma random_sp_m_mt count ignore sz : mok (eqon metas) h (random_sp_m cx count ignore sz).
  Proof. apply mok_random_sp_m; [exact Hh|reflexivity]. Qed.
  Hint Resolve random_sp_m_mt : mok.
  Lemma append_shard_mt sh : mok (eqon metas) h (append_shard sh).
  Proof. unfold append_shard. mok_tac. Qed.
  Hint Resolve append_shard_mt : mok.
  Lemma migrate_one_mt p d : mok (eqon metas) h (migrate_one cx p d).
  Proof. unfold migrate_one. mok_tac. mok_loop; mok_tac. Qed.
End MetaPass.

(* the staking hooks add at most the node under the empty address ([set_role] on a missing node stores the zero
    node under "", as SetSuperNode / SetNormalNode do; Model/Hooks.v) -- hence the [+ 1] in the node bound of EndBlock *)
Definition Rn (t t' : State) : Prop :=
  forall k, k <> EmptyString -> is_Some (nodes t' !! k) -> is_Some (nodes t !! k).
Global Instance Rn_preorder : PreOrder Rn.
Proof. split; [intros t k _ H; exact H|intros a b c H1 H2 k Hk H; apply H1, H2; assumption]. Qed.

Lemma Rn_frame t t' : nodes t' = nodes t -> Rn t t'.
Proof. intros E k _ H. rewrite <- E. exact H. Qed.

Lemma Rn_size t t' : Rn t t' -> (size (nodes t') <= S (size (nodes t)))%nat.
Proof.
  intros H.
  change (size (nodes t')) with (length (map_to_list (nodes t'))).
  change (size (nodes t)) with (length (map_to_list (nodes t))).
  rewrite <- (fmap_length fst (map_to_list (nodes t'))), <- (fmap_length fst (map_to_list (nodes t))).
  change (S (length (map_to_list (nodes t)).*1)) with (length (EmptyString :: (map_to_list (nodes t)).*1)).
  apply submseteq_length, NoDup_submseteq; [apply NoDup_fst_map_to_list|].
  intros x Hx. apply elem_of_list_fmap in Hx. destruct Hx as ([k a] & -> & Hka). cbn.
  apply elem_of_map_to_list in Hka.
  destruct (decide (k = EmptyString)) as [->|Hne]; [left|right].
  destruct (H k Hne) as [a' Ha']; [rewrite Hka; eexists; reflexivity|].
  apply elem_of_list_fmap. exists (k, a'). split; [reflexivity|]. apply elem_of_map_to_list, Ha'.
Qed.

Lemma set_role_rn h c r v : mok Rn h (set_role c r v).
Proof.
  unfold set_role. apply mok_modify. intros s k Hk H.
  destruct (nodes s !! c) as [n|] eqn:En; cbn in H; apply lookup_insert_is_Some in H;
    destruct H as [<-|[_ H]]; try exact H; [rewrite En; eexists; reflexivity|contradiction].
Qed.
Global Hint Resolve set_role_rn : mok.
Global Hint Extern 1 (Rn _ _) => apply Rn_frame; first [reflexivity | repeat case_match; reflexivity] : mokside.
Lemma verify_super_rn h v a b : mok Rn h (verify_super v a b).
Proof. unfold verify_super. mok_tac. Qed.
Global Hint Resolve verify_super_rn : mok.
Lemma st_event_rn h e : mok Rn h (st_event e).
Proof. unfold st_event. mok_tac. Qed.
Global Hint Resolve st_event_rn : mok.
Lemma staking_tx_rn h evs : mok Rn h (staking_tx evs).
Proof. unfold staking_tx. mok_tac. Qed.

Lemma NoDup_keys_length {A} (m : gmap string A) (l : list string) :
  NoDup l -> (forall x, x ∈ l -> is_Some (m !! x)) -> (length l <= size m)%nat.
Proof.
  intros Hnd Hin.
  change (size m) with (length (map_to_list m)). rewrite <- (fmap_length fst (map_to_list m)).
  apply submseteq_length, NoDup_submseteq; [exact Hnd|].
  intros x Hx. destruct (Hin x Hx) as [a Ha]. apply elem_of_list_fmap. exists (x, a). split; [reflexivity|].
  apply elem_of_map_to_list, Ha.
Qed.

Lemma random_sp_m_facts cx count ignore sz t sps t' :
  random_sp_m cx count ignore sz t = Ok sps t' ->
  Z.of_nat (length sps) <= Z.max 0 count /\ (length sps <= size (nodes t))%nat.
Proof.
  unfold random_sp_m, bind, get. intros E.
  destruct (random_sp _ _ _ _ _ _ _) as [[cs r]| |] eqn:Er; try discriminate E.
  cbn in E. injection E as <- _.
  apply random_sp_sound in Er. destruct Er as (H1 & H2 & H3).
  rewrite map_length. split; [exact H3|].
  rewrite <- (map_length c_addr). apply NoDup_keys_length; [exact H1|].
  intros x Hx. apply elem_of_list_In, in_map_iff in Hx. destruct Hx as (c & <- & Hc).
  rewrite (proj1 (H2 c Hc)). eexists; reflexivity.
Qed.

Lemma get_sps_len cx o d t sps t' :
  get_sps cx o d t = Ok sps t' -> Z.of_nat (length sps) <= Z.max 0 (o_replica o).
Proof.
  unfold get_sps. intros E.
  destruct (o_op o =? 1).
  - apply bind_ok in E. destruct E as (a & t1 & E1 & E2).
    apply random_sp_m_facts in E1. destruct E1 as [E1 _].
    destruct (_ || _); [discriminate E2|]. cbn in E2. injection E2 as <- _. exact E1.
  - destruct (o_op o =? 2); [|discriminate E].
    destruct (o_replica o <=? 0) eqn:Hr; [discriminate E|]. apply Z.leb_gt in Hr.
    apply bind_ok in E. destruct E as (s0 & t1 & E1 & E2). cbn in E1. injection E1 as <- <-.
    apply bind_ok in E2. destruct E2 as (a & t2 & E2 & E3).
    destruct (Z.of_nat (length a) <? o_replica o); [discriminate E3|]. cbn in E3. injection E3 as <- _.
    destruct (o_replica o <? Z.of_nat (length (find_sp_by_data t d))) eqn:H1.
    + cbn in E2. injection E2 as <- _. rewrite take_length. lia.
    + apply Z.ltb_ge in H1.
      destruct (Z.of_nat (length (find_sp_by_data t d)) <? o_replica o) eqn:H2.
      * apply bind_ok in E2. destruct E2 as (add & t3 & E2 & E4). cbn in E4. injection E4 as <- _.
        apply random_sp_m_facts in E2. destruct E2 as [E2 _]. rewrite app_length. lia.
      * apply Z.ltb_ge in H2. cbn in E2. injection E2 as <- _. lia.
Qed.

Lemma mapM_Forall2 {A B} (f : A -> option B) l r : mapM f l = Some r -> Forall2 (fun a b => f a = Some b) l r.
Proof.
  revert r. induction l as [|x l IH]; intros r E; cbn in E.
  - injection E as <-. constructor.
  - destruct (f x) as [y|] eqn:Ey; [|discriminate E]. destruct (mapM f l) as [ys|]; [|discriminate E].
    injection E as <-. constructor; [exact Ey|apply IH; reflexivity].
Qed.

Lemma shard_by_sp_spec s o sp id sh : shard_by_sp s o sp = Some (id, sh) -> shards s !! id = Some sh.
Proof.
  unfold shard_by_sp. intros E. apply head_Some_elem_of, elem_of_list_omap in E.
  destruct E as (x & _ & E). destruct (shards s !! x) as [sh'|] eqn:Ex; [|discriminate E].
  destruct (String.eqb _ _); [|discriminate E]. injection E as <- <-. exact Ex.
Qed.

Lemma In_removelast {A} (x : A) l : In x (removelast l) -> In x l.
Proof.
  induction l as [|y l IH]; cbn; [auto|]. destruct l as [|z l]; [intros []|].
  intros [->|H]; [left; reflexivity|right; apply IH, H].
Qed.

(* referential integrity of the shard table: the order a shard belongs to, and the orders of
   its pending renewals, exist *)
Definition shard_refs_ok (s : State) : Prop :=
  forall sid sh, shards s !! sid = Some sh ->
    is_Some (orders s !! sh_order sh) /\ forall ri, In ri (sh_renew sh) -> is_Some (orders s !! ri_order ri).

Lemma Forall_combine_snd {A B} (P : B -> Prop) (l1 : list A) (l2 : list B) :
  Forall P l2 -> Forall (fun x => P x.2) (combine l1 l2).
Proof.
  intros H. revert l1. induction H as [|y l2 Hy _ IH]; intros [|x l1]; cbn; constructor; [exact Hy|apply IH].
Qed.

(* [J t]: every identifier present in [t] is below its counter and is either one [b] already had or one at or above
   [b]'s counter -- relative to the state [b] the step started from, which is what "never given out again" needs.
   [tri N K m V t]: run from this [t], [m] keeps [J], appends at most [N] orders and [K] shards, and its result
   satisfies [V]. The state is an argument so that a handler lemma can put hypotheses on it. The budgets exist because
   the counters are written as [u64 (count + 1)] (Model/Storage.v): the premises [count + N < 2^64] exclude a wrap. *)
Section Ids.
  Context (b : State) (Hb1 : 0 <= order_count b) (Hb2 : 0 <= shard_count b).

  Definition okO (k : Z) : Prop := 0 <= k /\ (is_Some (orders b !! k) \/ order_count b <= k).
  Definition okS (k : Z) : Prop := 0 <= k /\ (is_Some (shards b !! k) \/ shard_count b <= k).

  Definition J (t : State) : Prop :=
    order_count b <= order_count t /\ shard_count b <= shard_count t /\
    (forall id, is_Some (orders t !! id) -> okO id /\ id < order_count t) /\
    (forall id, is_Some (shards t !! id) -> okS id /\ id < shard_count t).

  Definition post (t t' : State) (N K : Z) : Prop :=
    J t' /\ (order_count t <= order_count t' <= order_count t + N) /\
    (shard_count t <= shard_count t' <= shard_count t + K).

  Definition tri {A} (N K : Z) (m : M A) (V : A -> State -> Prop) (t : State) : Prop :=
    J t -> order_count t + N < two64 -> shard_count t + K < two64 ->
    match m t with
    | Ok a t' => post t t' N K /\ V a t'
    | Err _ t' => post t t' N K
    | Panic _ => True
    | Hang => True
    end.

  Lemma J_step t t' :
    J t -> order_count t <= order_count t' -> shard_count t <= shard_count t' ->
    (forall id, is_Some (orders t' !! id) -> is_Some (orders t !! id) \/ (okO id /\ id < order_count t')) ->
    (forall id, is_Some (shards t' !! id) -> is_Some (shards t !! id) \/ (okS id /\ id < shard_count t')) ->
    J t'.
  Proof.
    intros (J1 & J2 & J3 & J4) Ho Hs HO HS. unfold J.
    split; [lia|]. split; [lia|]. split; intros id H.
    - destruct (HO id H) as [H'|H']; [|exact H']. destruct (J3 id H') as [? ?]. split; [assumption|lia].
    - destruct (HS id H) as [H'|H']; [|exact H']. destruct (J4 id H') as [? ?]. split; [assumption|lia].
  Qed.

  Lemma J_Rdel t t' : Rdel t t' -> J t -> J t'.
  Proof.
    intros (E1 & E2 & E3 & E4) HJ. apply (J_step t t' HJ); try lia; intros id H; left; auto.
  Qed.

  Lemma post_refl t N K : J t -> 0 <= N -> 0 <= K -> post t t N K.
  Proof. intros. unfold post. split; [assumption|lia]. Qed.

  Lemma tri_ret {A} N K (a : A) (V : A -> State -> Prop) t :
    0 <= N -> 0 <= K -> (J t -> V a t) -> tri N K (ret a) V t.
  Proof. intros HN HK HV HJ _ _. cbn. split; [apply post_refl; assumption|auto]. Qed.
  Lemma tri_fail {A} N K e (V : A -> State -> Prop) t : 0 <= N -> 0 <= K -> tri N K (fail e) V t.
  Proof. intros HN HK HJ _ _. cbn. apply post_refl; assumption. Qed.
  Lemma tri_panic {A} N K e (V : A -> State -> Prop) t : tri N K (panic e) V t.
  Proof. intros HJ _ _. exact I. Qed.
  Lemma tri_get_bind {A} N K (k : State -> M A) V t : tri N K (k t) V t -> tri N K (bind get k) V t.
  Proof. intros H. exact H. Qed.
  Lemma tri_bind {A B} N K n1 k1 (m : M A) (k : A -> M B) V1 V t :
    tri n1 k1 m V1 t -> n1 <= N -> k1 <= K ->
    (forall a t', J t' -> order_count t <= order_count t' -> shard_count t <= shard_count t' -> V1 a t' ->
                  tri (N - n1) (K - k1) (k a) V t') ->
    tri N K (bind m k) V t.
  Proof.
    intros Hm Hn1 Hk1 Hk HJ HN HK. unfold bind.
    assert (Hpre : forall t', post t t' n1 k1 -> forall t'' , post t' t'' (N - n1) (K - k1) -> post t t'' N K).
    { intros t' (Ja & Jb & Jc) t'' (Jd & Je & Jf). unfold post. split; [assumption|lia]. }
    specialize (Hm HJ ltac:(lia) ltac:(lia)).
    destruct (m t) as [a t'|e t'|e|] eqn:Em; auto.
    - destruct Hm as [Hp HV]. pose proof Hp as (Ja & Jb & Jc).
      specialize (Hk a t' Ja ltac:(lia) ltac:(lia) HV Ja ltac:(lia) ltac:(lia)).
      destruct (k a t') as [a2 t''|e2 t''|e2|]; auto.
      + destruct Hk as [Hp2 HV2]. split; [eapply Hpre; eassumption|exact HV2].
      + eapply Hpre; eassumption.
    - destruct Hm as (Ja & Jb & Jc). unfold post. split; [assumption|lia].
  Qed.

  Lemma tri_modify N K g (V : unit -> State -> Prop) t :
    (J t -> order_count t + N < two64 -> shard_count t + K < two64 -> post t (g t) N K /\ V tt (g t)) ->
    tri N K (modify g) V t.
  Proof. intros H HJ HN HK. cbn. auto. Qed.

  Lemma tri_try {A} N K (m : M A) (V : A -> State -> Prop) t :
    tri N K m V t -> tri N K (try_ m) (fun o t' => match o with Some a => V a t' | None => True end) t.
  Proof. intros H HJ HN HK. specialize (H HJ HN HK). unfold try_. destruct (m t); auto. Qed.

  Lemma tri_conseq {A} N K N' K' (m : M A) (V V' : A -> State -> Prop) t :
    tri N K m V t -> N <= N' -> K <= K' -> (forall a t', V a t' -> V' a t') -> tri N' K' m V' t.
  Proof.
    intros H HN HK HV HJ HN' HK'. specialize (H HJ ltac:(lia) ltac:(lia)).
    assert (Hp : forall t', post t t' N K -> post t t' N' K').
    { intros t' (Ja & Jb & Jc). unfold post. split; [assumption|lia]. }
    destruct (m t); auto. destruct H as [H1 H2]. auto.
  Qed.

  Lemma tri_if {A} N K (c : bool) (m1 m2 : M A) V t :
    (c = true -> tri N K m1 V t) -> (c = false -> tri N K m2 V t) -> tri N K (if c then m1 else m2) V t.
  Proof. destruct c; auto. Qed.
  Lemma tri_option {A B} N K (o : option B) (m1 : B -> M A) (m2 : M A) V t :
    (forall b, o = Some b -> tri N K (m1 b) V t) -> (o = None -> tri N K m2 V t) ->
    tri N K (match o with Some b => m1 b | None => m2 end) V t.
  Proof. destruct o; auto. Qed.

  Lemma post_Rdel t t' N K : Rdel t t' -> J t -> 0 <= N -> 0 <= K -> post t t' N K.
  Proof. intros HR HJ HN HK. pose proof HR as (E1 & E2 & _). split; [eapply J_Rdel; eassumption|lia]. Qed.

  Lemma tri_del {A} h N K (m : M A) t : mok Rdel h m -> 0 <= N -> 0 <= K -> tri N K m (fun _ _ => True) t.
  Proof. intros H HN HK HJ _ _. specialize (H t). destruct (m t); auto using post_Rdel. Qed.

  (* a fact about the result and final state, proved separately (the postconditions [True /\ P] below come from
     adding [P] to the trivial postcondition of [tri_del]) *)
  Lemma tri_val {A} N K (m : M A) (V : A -> State -> Prop) (P : A -> State -> Prop) t :
    (forall a t', m t = Ok a t' -> P a t') -> tri N K m V t -> tri N K m (fun a t' => V a t' /\ P a t') t.
  Proof.
    intros HP H HJ HN HK. specialize (H HJ HN HK). destruct (m t) eqn:E; auto.
    destruct H as [H1 H2]. split; [assumption|]. split; [assumption|]. eapply HP. reflexivity.
  Qed.

  Lemma tri_forM_in {A} c d (l : list A) (f : A -> M unit) (I : State -> Prop) :
    0 <= c -> 0 <= d ->
    (forall x, In x l -> forall t, I t -> tri c d (f x) (fun _ t' => I t') t) ->
    forall t, I t -> tri (Z.of_nat (length l) * c) (Z.of_nat (length l) * d) (forM l f) (fun _ t' => I t') t.
  Proof.
    intros Hc Hd. induction l as [|x l IH]; intros Hf t Ht.
    - cbn [forM length]. apply tri_ret; [lia|lia|auto].
    - cbn [forM]. eapply (tri_bind _ _ c d); [apply Hf; [left; reflexivity|exact Ht]|cbn [length]; nia|cbn [length]; nia|].
      intros a t' HJ' _ _ Ht'.
      eapply tri_conseq; [apply IH; [intros y Hy; apply Hf; right; exact Hy|exact Ht']|cbn [length]; nia|cbn [length]; nia|auto].
  Qed.
  Lemma tri_forM {A} c d (l : list A) (f : A -> M unit) (I : State -> Prop) :
    0 <= c -> 0 <= d ->
    (forall x t, I t -> tri c d (f x) (fun _ t' => I t') t) ->
    forall t, I t -> tri (Z.of_nat (length l) * c) (Z.of_nat (length l) * d) (forM l f) (fun _ t' => I t') t.
  Proof. intros Hc Hd Hf. apply tri_forM_in; auto. Qed.

  Lemma J_orders t k o : J t -> orders t !! k = Some o -> okO k /\ k < order_count t.
  Proof. intros (_ & _ & H & _) E. apply H. rewrite E. eexists; reflexivity. Qed.
  Lemma J_shards t k o : J t -> shards t !! k = Some o -> okS k /\ k < shard_count t.
  Proof. intros (_ & _ & _ & H) E. apply H. rewrite E. eexists; reflexivity. Qed.

  Definition Vo (id : Z) (t' : State) : Prop := okO id /\ id < order_count t'.
  Definition Vs (id : Z) (t' : State) : Prop := okS id /\ id < shard_count t'.

  Lemma append_order_tri o t : tri 1 0 (append_order o) Vo t.
  Proof.
    intros HJ HN HK. pose proof HJ as (J1 & J2 & J3 & J4).
    unfold append_order, bind, get, modify, ret. cbn.
    rewrite u64_id by (unfold two64 in *; lia).
    assert (Hok : okO (order_count t)) by (split; [lia|right; lia]).
    split; [|split; [exact Hok|cbn; lia]].
    split; [|cbn; lia].
    apply (J_step t); [exact HJ|cbn; lia|cbn; lia| |]; cbn; intros id H.
    - apply lookup_insert_is_Some in H. destruct H as [<-|[_ H]]; [right; split; [exact Hok|lia]|left; exact H].
    - left; exact H.
  Qed.

  Lemma append_shard_tri sh t : tri 0 1 (append_shard sh) Vs t.
  Proof.
    intros HJ HN HK. pose proof HJ as (J1 & J2 & J3 & J4).
    unfold append_shard, bind, get, modify, ret. cbn.
    rewrite u64_id by (unfold two64 in *; lia).
    assert (Hok : okS (shard_count t)) by (split; [lia|right; lia]).
    split; [|split; [exact Hok|cbn; lia]].
    split; [|cbn; lia].
    apply (J_step t); [exact HJ|cbn; lia|cbn; lia| |]; cbn; intros id H.
    - left; exact H.
    - apply lookup_insert_is_Some in H. destruct H as [<-|[_ H]]; [right; split; [exact Hok|lia]|left; exact H].
  Qed.

  Lemma new_shard_task_tri oid o p t : tri 0 1 (new_shard_task oid o p) Vs t.
  Proof. apply append_shard_tri. Qed.

  Lemma post_upd t t' N K :
    J t -> 0 <= N -> 0 <= K -> order_count t' = order_count t -> shard_count t' = shard_count t ->
    (forall id, is_Some (orders t' !! id) -> is_Some (orders t !! id) \/ (okO id /\ id < order_count t)) ->
    (forall id, is_Some (shards t' !! id) -> is_Some (shards t !! id) \/ (okS id /\ id < shard_count t)) ->
    post t t' N K.
  Proof.
    intros HJ HN HK E1 E2 HO HS. split; [|lia].
    apply (J_step t); [exact HJ|lia|lia| |]; intros id H.
    - destruct (HO id H) as [H'|[H1 H2]]; [left; exact H'|right; split; [exact H1|lia]].
    - destruct (HS id H) as [H'|[H1 H2]]; [left; exact H'|right; split; [exact H1|lia]].
  Qed.
  Lemma post_orders_insert t t' k v N K :
    orders t' = <[k:=v]> (orders t) -> order_count t' = order_count t -> shards t' = shards t ->
    shard_count t' = shard_count t -> okO k /\ k < order_count t -> J t -> 0 <= N -> 0 <= K -> post t t' N K.
  Proof.
    intros E1 E2 E3 E4 Hk HJ HN HK. apply post_upd; auto; intros id H.
    - rewrite E1 in H. apply lookup_insert_is_Some in H. destruct H as [<-|[_ H]]; [right; exact Hk|left; exact H].
    - rewrite E3 in H. left; exact H.
  Qed.
  Lemma post_shards_insert t t' k v N K :
    orders t' = orders t -> order_count t' = order_count t -> shards t' = <[k:=v]> (shards t) ->
    shard_count t' = shard_count t -> okS k /\ k < shard_count t -> J t -> 0 <= N -> 0 <= K -> post t t' N K.
  Proof.
    intros E1 E2 E3 E4 Hk HJ HN HK. apply post_upd; auto; intros id H.
    - rewrite E1 in H. left; exact H.
    - rewrite E3 in H. apply lookup_insert_is_Some in H. destruct H as [<-|[_ H]]; [right; exact Hk|left; exact H].
  Qed.

End Ids.

Lemma ok_lt (P : Prop) k c c' : P /\ k < c -> c <= c' -> P /\ k < c'.
Proof. intros [H1 H2] H. split; [exact H1|lia]. Qed.

Lemma mapM_shard_keys b t (c : Shard -> bool) l shs :
  mapM (fun id => match shards t !! id with
                  | Some sh => if c sh then Some (id, sh) else None
                  | None => None end) l = Some shs ->
  J b t -> Forall (fun x : Z * Shard => okS b x.1 /\ x.1 < shard_count t) shs.
Proof.
  intros E HJ. apply mapM_Forall2 in E. induction E as [|x y l r Hxy _ IH]; constructor; [|exact IH].
  destruct (shards t !! x) as [sh|] eqn:Ex; [|discriminate Hxy]. destruct (c sh); [|discriminate Hxy].
  injection Hxy as <-. cbn. eapply J_shards; eassumption.
Qed.

Lemma omap_shard_keys b t l :
  J b t ->
  Forall (fun x : Z * Shard => okS b x.1 /\ x.1 < shard_count t)
         (omap (fun id => match shards t !! id with Some sh => Some (id, sh) | None => None end) l).
Proof.
  intros HJ. apply Forall_forall. intros [id sh] Hx. apply elem_of_list_omap in Hx.
  destruct Hx as (x & _ & Hx). destruct (shards t !! x) as [sh'|] eqn:Ex; [|discriminate Hx].
  injection Hx as <- <-. cbn. eapply J_shards; eassumption.
Qed.

(* key facts of the lookups in context *)
Ltac note_keys :=
  repeat match goal with
    | E : shard_by_sp ?t ?o ?sp = Some (?id, ?sh) |- _ =>
        lazymatch goal with
        | _ : shards t !! id = Some sh |- _ => fail
        | _ => pose proof (shard_by_sp_spec t o sp id sh E)
        end
    | E : orders ?t !! ?k = Some ?o, HJ : J ?b ?t |- _ =>
        lazymatch goal with
        | _ : okO b k /\ k < order_count t |- _ => fail
        | _ => pose proof (J_orders b t k o HJ E)
        end
    | E : shards ?t !! ?k = Some ?o, HJ : J ?b ?t |- _ =>
        lazymatch goal with
        | _ : okS b k /\ k < shard_count t |- _ => fail
        | _ => pose proof (J_shards b t k o HJ E)
        end
    end.

Ltac key_solve :=
  note_keys;
  match goal with
  | H : okO ?b ?k /\ ?k < _ |- okO ?b ?k /\ ?k < _ => apply (ok_lt _ k _ _ H); lia
  | H : okS ?b ?k /\ ?k < _ |- okS ?b ?k /\ ?k < _ => apply (ok_lt _ k _ _ H); lia
  | H : Vo ?b ?k _ |- okO ?b ?k /\ ?k < _ => apply (ok_lt _ k _ _ H); lia
  | H : Vs ?b ?k _ |- okS ?b ?k /\ ?k < _ => apply (ok_lt _ k _ _ H); lia
  end.

Ltac post_tac :=
  first [ eapply post_Rdel; [solve [auto 1 with mokside nocore]|eassumption|lia|lia]
        | eapply post_orders_insert; [reflexivity|reflexivity|reflexivity|reflexivity|key_solve|eassumption|lia|lia]
        | eapply post_shards_insert; [reflexivity|reflexivity|reflexivity|reflexivity|key_solve|eassumption|lia|lia] ].

Create HintDb tri discriminated.

Ltac tri_sub :=
  first [ solve [eauto with tri]
        | eapply (tri_del _ true 0 0); [solve [mok_tac]|lia|lia] ].

Ltac tri_ret_tac := first [ exact I | unfold Vo, Vs; cbn [fst snd]; key_solve ].

Lemma tri_J b {A} N K (m : M A) V t : (J b t -> tri b N K m V t) -> tri b N K m V t.
Proof. intros H HJ. exact (H HJ HJ). Qed.

Lemma tri_assoc b {A B C} N K (m : M A) (k1 : A -> M B) (k2 : B -> M C) V t :
  tri b N K (bind m (fun a => bind (k1 a) k2)) V t -> tri b N K (bind (bind m k1) k2) V t.
Proof. unfold tri, bind. destruct (m t); auto. Qed.

Ltac tri_intros :=
  let HV := fresh "HV" in
  intros ? ? ? ? ? HV; cbv beta in HV.

Ltac tri_step :=
  lazymatch goal with
  | |- tri _ _ _ (bind get _) _ _ => apply tri_get_bind; cbv beta
  | |- tri _ _ _ (bind (modify _) _) _ _ =>
      eapply (tri_bind _ _ _ 0 0 _ _ (fun _ _ => True));
      [apply tri_modify; intros ? ? ?; split; [post_tac|exact I]|lia|lia|intros ? ? ? ? ? _]
  | |- tri _ _ _ (bind (try_ _) _) _ _ =>
      eapply tri_bind; [apply tri_try; tri_sub|lia|lia|tri_intros]
  | |- tri _ _ _ (bind (match ?x with _ => _ end) _) _ _ =>
      first [ eapply tri_bind; [tri_sub|lia|lia|tri_intros]
            | is_var x; destruct x
            | destruct x eqn:? ]
  | |- tri _ _ _ (bind (bind _ _) _) _ _ =>
      first [ eapply tri_bind; [tri_sub|lia|lia|tri_intros] | apply tri_assoc ]
  | |- tri _ _ _ (bind _ _) _ _ =>
      eapply tri_bind; [tri_sub|lia|lia|tri_intros]
  | |- tri _ _ _ (ret _) _ _ => apply tri_ret; [lia|lia|intros ?; tri_ret_tac]
  | |- tri _ _ _ (fail _) _ _ => apply tri_fail; lia
  | |- tri _ _ _ (panic _) _ _ => apply tri_panic
  | |- tri _ _ _ (modify _) _ _ => apply tri_modify; intros ? ? ?; split; [post_tac|tri_ret_tac]
  | |- tri _ _ _ (let _ := _ in _) _ _ => cbv zeta
  | |- tri _ _ _ (match ?x with _ => _ end) _ _ =>
      first [ is_var x; destruct x
            | apply tri_if; intros ?
            | apply tri_option; [intros ? ?|intros ?]
            | destruct x eqn:? ]
  | |- tri _ _ _ _ _ _ =>
      eapply tri_conseq; [tri_sub|lia|lia|intros; tri_ret_tac]
  end.

Ltac tri_tac := repeat tri_step.

Section IdsH.
  Context (b : State) (Hb1 : 0 <= order_count b) (Hb2 : 0 <= shard_count b).
  Local Notation tri := (tri b).
  Hint Resolve append_order_tri append_shard_tri new_shard_task_tri : tri.

  Lemma gen_shards_tri oid sps : forall o t,
    tri 0 (Z.of_nat (length sps)) (gen_shards oid o sps) (fun _ _ => True) t.
  Proof.
    induction sps as [|sp sps IH]; intros o t; cbn [gen_shards length]; [tri_tac|].
    eapply tri_bind; [apply new_shard_task_tri; assumption|lia|lia|intros id t' _ _ _ _].
    eapply tri_conseq; [apply IH|lia|lia|auto].
  Qed.
  Hint Resolve gen_shards_tri : tri.

  Lemma generate_shards_tri oid o sps t :
    tri 0 (Z.of_nat (length sps)) (generate_shards oid o sps) (fun _ _ => True) t.
  Proof. unfold generate_shards. destruct sps as [|sp sps]; [tri_tac|]. tri_tac. Qed.
  Hint Resolve generate_shards_tri : tri.

  Lemma new_order_tri cx o sps t :
    tri 1 (Z.of_nat (length sps)) (new_order cx o sps) (fun r t' => Vo b r.1 t') t.
  Proof. unfold new_order. tri_tac. Qed.
  Hint Resolve new_order_tri : tri.

  Lemma renew_order_tri o t : tri 1 0 (renew_order o) (Vo b) t.
  Proof. unfold renew_order. tri_tac. Qed.
  Hint Resolve renew_order_tri : tri.

  Lemma shard_pledge_tri id sh price t :
    okS b id /\ id < shard_count t -> tri 0 0 (shard_pledge id sh price) (fun _ _ => True) t.
  Proof. intros Hk. unfold shard_pledge. tri_tac. Qed.
  Hint Extern 1 (Frame.tri _ _ _ (shard_pledge _ _ _) _ _) => apply shard_pledge_tri; first [assumption|key_solve] : tri.

  Lemma get_sps_tri cx o d t :
    tri 0 0 (get_sps cx o d) (fun sps _ => True /\ Z.of_nat (length sps) <= Z.max 0 (o_replica o)) t.
  Proof.
    apply tri_val; [intros a t' E; eapply get_sps_len, E|].
    eapply (tri_del _ true); [apply get_sps_del; right; reflexivity|lia|lia].
  Qed.
  Hint Resolve get_sps_tri : tri.
  Lemma get_sps_opt_tri (ip : bool) cx o d t :
    tri 0 0 (if ip then get_sps cx o d else ret []) (fun sps _ => True /\ Z.of_nat (length sps) <= Z.max 0 (o_replica o)) t.
  Proof.
    destruct ip; [apply get_sps_tri|]. apply tri_ret; [lia|lia|]. intros _. split; [exact I|cbn; lia].
  Qed.
  Hint Resolve get_sps_opt_tri : tri.

  Lemma sao_store_tri cx m K t :
    st_replica m <= K -> 0 <= K -> tri 1 K (sao_store cx m) (fun _ _ => True) t.
  Proof. intros HK HK0. unfold sao_store. tri_tac. all: cbn [o_replica] in *; tri_tac. Qed.

  Lemma sao_ready_tri cx c p oid K t :
    (forall o, orders t !! oid = Some o -> o_replica o <= K) -> 0 <= K ->
    tri 0 K (sao_ready cx c p oid) (fun _ _ => True) t.
  Proof.
    intros HK HK0. apply tri_J; intros HJ. unfold sao_ready. tri_step.
    destruct (orders t !! oid) as [o|] eqn:Eo; [|tri_tac]. specialize (HK o eq_refl). tri_tac.
  Qed.

  Lemma handle_expired_shard_tri cx sid t : tri 0 0 (handle_expired_shard cx sid) (fun _ _ => True) t.
  Proof. apply tri_J; intros HJ. unfold handle_expired_shard. tri_tac. Qed.

  Lemma complete_migration_tri cx oid o sid sh t :
    okO b oid /\ oid < order_count t -> shard_refs_ok t ->
    tri 0 0 (complete_migration cx oid o sid sh) (fun _ _ => True) t.
  Proof.
    intros Hoid Hrefs. apply tri_J; intros HJ. unfold complete_migration.
    destruct (String.eqb (sh_from sh) ""); [tri_tac|]. tri_step.
    destruct (shard_by_sp t o (sh_from sh)) as [[old_id old]|] eqn:Esp; [|tri_tac].
    pose proof (shard_by_sp_spec _ _ _ _ _ Esp) as Eold. destruct (Hrefs _ _ Eold) as [Hr1 Hr2].
    tri_tac.
    eapply tri_bind; [eapply (tri_forM_in b 0 0 _ _ (fun t'' => order_count t <= order_count t'')); [lia|lia| |lia]|lia|lia|].
    - intros id Hid t'' Ht''.
      assert (Hex : is_Some (orders t !! id)).
      { apply in_app_or in Hid. destruct Hid as [Hid|Hid].
        - destruct (sh_order old =? oid); [destruct Hid|]. destruct Hid as [<-|[]]. exact Hr1.
        - apply in_map_iff in Hid. destruct Hid as (ri & <- & Hri). apply Hr2, In_removelast, Hri. }
      destruct Hex as [x Ex]. rewrite Ex.
      apply tri_modify. intros HJ'' _ _. split; [post_tac|cbn; lia].
    - intros _ t'' _ _ _ _. tri_tac.
  Qed.

  Hint Extern 1 (Frame.tri _ _ _ (complete_migration _ _ _ _ _) _ _) =>
    apply complete_migration_tri; first [assumption|key_solve] : tri.

  Lemma sao_complete_tri cx c p oid cid sz ok t :
    shard_refs_ok t -> tri 0 0 (sao_complete cx c p oid cid sz ok) (fun _ _ => True) t.
  Proof. intros Hrefs. apply tri_J; intros HJ. unfold sao_complete. tri_tac. Qed.

  Lemma renew_one_tri cx m sd d t : tri 1 0 (renew_one cx m sd d) (fun _ _ => True) t.
  Proof.
    apply tri_J; intros HJ. unfold renew_one. tri_tac.
    match goal with E : mapM _ _ = Some ?shs |- _ => pose proof (mapM_shard_keys b t _ _ _ E HJ) as Hkeys end.
    match goal with |- Frame.tri _ _ _ (bind (?F ?shs 0) _) _ ?t1 =>
      assert (Hloop : forall ll acc t2, Forall (fun x : Z * Shard => okS b x.1 /\ x.1 < shard_count t) ll ->
                        shard_count t <= shard_count t2 -> tri 0 0 (F ll acc) (fun _ _ => True) t2) end.
    { intros ll. induction ll as [|[id sh] ll IH]; intros acc t2 Hl Hsc; fix_unfold; [tri_tac|].
      inversion Hl as [|? ? Hx Hl']; subst. cbn [fst] in Hx.
      tri_tac; (eapply tri_conseq; [apply IH; [exact Hl'|lia]|lia|lia|auto]). }
    eapply tri_bind; [apply Hloop; [exact Hkeys|lia]|lia|lia|tri_intros]. tri_tac.
  Qed.

  Lemma sao_renew_tri cx m t :
    tri (Z.of_nat (length (rn_data m))) 0 (sao_renew cx m) (fun _ _ => True) t.
  Proof.
    unfold sao_renew. tri_tac.
    eapply tri_conseq; [apply (tri_forM b 1 0 _ _ (fun _ => True)); [lia|lia| |exact I]|lia|lia|auto].
    intros x t1 _. eapply tri_conseq; [apply renew_one_tri; assumption|lia|lia|auto].
  Qed.

  Lemma random_sp_m_tri cx count ignore sz t :
    tri 0 0 (random_sp_m cx count ignore sz)
        (fun r _ => True /\ (length r <= size (nodes t))%nat) t.
  Proof.
    apply tri_val; [intros a t' E; eapply random_sp_m_facts, E|].
    eapply (tri_del _ true); [apply random_sp_m_del; right; reflexivity|lia|lia].
  Qed.

  Lemma migrate_one_tri cx p d Mx t :
    (forall m, metas t !! d = Some m -> Z.of_nat (length (m_orders m)) <= Mx) -> 0 <= Mx ->
    tri 0 Mx (migrate_one cx p d) (fun _ _ => True) t.
  Proof.
    intros HM HM0. unfold migrate_one. tri_step.
    destruct (metas t !! d) as [meta|] eqn:Em; [|tri_tac]. specialize (HM meta eq_refl).
    rewrite <- rev_length in HM.
    match goal with |- Frame.tri _ _ _ (?F ?l0 []) _ _ =>
      assert (Hloop : forall ll cm t2, tri 0 (Z.of_nat (length ll)) (F ll cm) (fun _ _ => True) t2) end.
    { intros ll. induction ll as [|oid ll IH]; intros cm t2; fix_unfold; [tri_tac|].
      apply tri_J; intros HJ2. cbn [length].
      tri_tac. }
    eapply tri_conseq; [apply Hloop|lia|lia|auto].
  Qed.

  Lemma sao_migrate_tri cx c p data Mx t :
    (forall d m, metas t !! d = Some m -> Z.of_nat (length (m_orders m)) <= Mx) -> 0 <= Mx ->
    tri 0 (Z.of_nat (length data) * Mx) (sao_migrate cx c p data) (fun _ _ => True) t.
  Proof.
    intros HM HM0. unfold sao_migrate. tri_step. destruct (negb (acts_for t c p)); [tri_tac; nia|].
    eapply tri_conseq; [apply (tri_forM b 0 Mx _ _ (fun t1 => metas t1 = metas t)); [lia|lia| |reflexivity]|lia|lia|auto].
    intros d t1 Ht1.
    eapply tri_conseq; [eapply (tri_val b _ _ _ _ (fun _ t' => metas t' = metas t)); [|apply (migrate_one_tri cx p d Mx t1)]|lia|lia|].
    - intros a t' E. pose proof (migrate_one_mt cx true (or_intror eq_refl) p d t1) as Hk. rewrite E in Hk.
      unfold eqon in Hk. cbv beta. rewrite Hk. exact Ht1.
    - intros m Hm. rewrite Ht1 in Hm. eapply HM, Hm.
    - exact HM0.
    - cbv beta. intros a t' [_ H]. exact H.
  Qed.

  Hint Resolve random_sp_m_tri : tri.

  Lemma handle_timeout_order_tri cx oid B t :
    Z.of_nat (size (nodes t)) <= B ->
    tri 0 B (handle_timeout_order cx oid) (fun _ _ => True) t.
  Proof.
    intros HB. apply tri_J; intros HJ. unfold handle_timeout_order. tri_step.
    destruct (orders t !! oid) as [o|] eqn:Eo; [|tri_tac].
    pose proof (omap_shard_keys b t (o_shards o) HJ) as Hpres.
    tri_tac.
    match goal with |- Frame.tri _ _ _ (bind (?F (combine ?rand ?ts) o) _) _ ?t1 =>
      assert (Hloop : forall ll oacc t2, Forall (fun x : string * (Z * Shard) => okS b x.2.1 /\ x.2.1 < shard_count t) ll ->
                        shard_count t <= shard_count t2 ->
                        tri 0 (Z.of_nat (length ll)) (F ll oacc) (fun _ _ => True) t2);
      [|assert (Hts : Forall (fun x : Z * Shard => okS b x.1 /\ x.1 < shard_count t) ts)
          by (apply Forall_forall; intros x Hx; apply elem_of_list_filter in Hx; destruct Hx as [_ Hx];
              revert x Hx; apply Forall_forall, Hpres);
        eapply tri_bind; [apply Hloop; [apply (Forall_combine_snd (fun y : Z * Shard => okS b y.1 /\ y.1 < shard_count t)), Hts|lia]
                         |lia|rewrite combine_length; lia|tri_intros]] end.
    - intros ll. induction ll as [|[newsp [sid sh]] ll IH]; intros oacc t2 Hl Hsc; fix_unfold; [tri_tac|].
      inversion Hl as [|? ? Hx Hl']; subst. cbn [fst snd] in Hx. cbn [length].
      tri_tac. eapply tri_conseq; [apply IH; [exact Hl'|lia]|lia|lia|auto].
    - rewrite combine_length. tri_tac.
  Qed.

  Lemma forM_expired_tri cx l t : tri 0 0 (forM l (handle_expired_shard cx)) (fun _ _ => True) t.
  Proof.
    eapply tri_conseq; [apply (tri_forM b 0 0 _ _ (fun _ => True)); [lia|lia| |exact I]|lia|lia|auto].
    intros sid t2 _. eapply tri_conseq; [apply handle_expired_shard_tri; assumption|lia|lia|auto].
  Qed.
  Hint Resolve forM_expired_tri : tri.

  Lemma end_block_sao_tri cx B t :
    (forall l, timeouts t !! cx_height cx = Some l -> Z.of_nat (length l) * Z.of_nat (size (nodes t)) <= B) -> 0 <= B ->
    tri 0 B (end_block_sao cx) (fun _ _ => True) t.
  Proof.
    intros HB HB0. unfold end_block_sao. tri_step.
    destruct (timeouts t !! cx_height cx) as [l|] eqn:El.
    - specialize (HB l eq_refl). apply tri_assoc.
      eapply tri_bind; [apply (tri_forM b 0 (Z.of_nat (size (nodes t))) _ _ (fun t1 => nodes t1 = nodes t)); [lia|lia| |reflexivity]|lia|lia|].
      + intros oid t1 Ht1.
        eapply tri_conseq; [eapply (tri_val b _ _ _ _ (fun _ t' => nodes t' = nodes t)); [|apply (handle_timeout_order_tri cx oid (Z.of_nat (size (nodes t))) t1)]|lia|lia|].
        * intros a t' E. pose proof (handle_timeout_order_nd cx true (or_intror eq_refl) oid t1) as Hk. rewrite E in Hk.
          unfold eqon in Hk. cbv beta. rewrite Hk. exact Ht1.
        * rewrite Ht1. lia.
        * cbv beta. intros a t' [_ H]. exact H.
      + intros _ t1 _ _ _ _. tri_tac.
    - tri_tac.
  Qed.
End IdsH.

Definition ids_concl (s s' : State) : Prop :=
  Inv_ids s' /\ order_count s <= order_count s' /\ shard_count s <= shard_count s' /\
  (forall id o, orders s' !! id = Some o -> orders s !! id = None -> order_count s <= id) /\
  (forall id sh, shards s' !! id = Some sh -> shards s !! id = None -> shard_count s <= id).

Lemma J_init s : Inv_ids s -> J s s.
Proof.
  intros [H1 H2]. unfold J. split; [lia|]. split; [lia|]. split; intros id [x Hx].
  - destruct (H1 id x Hx). split; [split; [lia|left; eexists; exact Hx]|lia].
  - destruct (H2 id x Hx). split; [split; [lia|left; eexists; exact Hx]|lia].
Qed.

Lemma J_concl s s' : J s s' -> ids_concl s s'.
Proof.
  intros (J1 & J2 & J3 & J4). unfold ids_concl, Inv_ids.
  split; [split; intros id x Hx|].
  - destruct (J3 id) as [[H0 _] Hlt]; [eexists; exact Hx|]. lia.
  - destruct (J4 id) as [[H0 _] Hlt]; [eexists; exact Hx|]. lia.
  - split; [exact J1|]. split; [exact J2|]. split; intros id x Hx Hn.
    + destruct (J3 id) as [[_ [[y Hy]|H]] _]; [eexists; exact Hx|congruence|exact H].
    + destruct (J4 id) as [[_ [[y Hy]|H]] _]; [eexists; exact Hx|congruence|exact H].
Qed.

Lemma deliver_J s {A} N K (m : M A) V :
  tri s N K m V s -> J s s -> order_count s + N < two64 -> shard_count s + K < two64 -> J s (deliver m s).1.1.
Proof.
  intros H HJ HN HK. specialize (H HJ HN HK). rewrite deliver_state.
  destruct (m s) as [a s'|e s'|e|]; try exact HJ.
  destruct H as [[H _] _]. exact H.
Qed.

Lemma block_J s {A} N K (m : M A) V :
  tri s N K m V s -> J s s -> order_count s + N < two64 -> shard_count s + K < two64 -> J s (block_phase m s).1.1.
Proof.
  intros H HJ HN HK. specialize (H HJ HN HK). rewrite block_phase_state.
  destruct (m s) as [a s'|e s'|e|]; try exact HJ.
  - destruct H as [[H _] _]. exact H.
  - destruct H as [H _]. exact H.
Qed.

(* the sizes a single ABCI call iterates over fit the Go types they come from: replica counts are
   int32, the lists are far shorter than 2^31. Without a bound of this kind a single call could
   wrap a 64-bit counter. *)
Definition sizes_small (cx : Ctx) (s : State) (op : Op) : Prop :=
  match op with
  | OStore m => st_replica m < two31
  | OReady _ _ oid => forall o, orders s !! oid = Some o -> o_replica o < two31
  | ORenew m => Z.of_nat (length (rn_data m)) < two31
  | OMigrate _ _ data =>
      Z.of_nat (length data) < two31 /\
      forall d m, metas s !! d = Some m -> Z.of_nat (length (m_orders m)) < two31
  | OEndBlock _ =>
      Z.of_nat (size (nodes s)) + 1 < two31 /\
      forall l, timeouts s !! cx_height cx = Some l -> Z.of_nat (length l) < two31
  | _ => True
  end.

(* only a migration completed by [OComplete] follows references out of the shard table *)
Definition complete_refs_ok (s : State) (op : Op) : Prop :=
  match op with OComplete _ _ _ _ _ _ => shard_refs_ok s | _ => True end.

Lemma end_block_tri cx evs B s :
  0 <= order_count s -> 0 <= shard_count s ->
  (forall l, timeouts s !! cx_height cx = Some l -> Z.of_nat (length l) * (Z.of_nat (size (nodes s)) + 1) <= B) -> 0 <= B ->
  tri s 0 B (end_block cx evs) (fun _ _ => True) s.
Proof.
  intros H1 H2 Hl HB. unfold end_block.
  eapply (tri_bind s _ _ 0 0 _ _ (fun _ t1 => (True /\ timeouts t1 = timeouts s) /\ Rn s t1)).
  - apply tri_val.
    + intros a t' E. pose proof (staking_tx_rn true evs s) as Hk. rewrite E in Hk. exact Hk.
    + apply tri_val.
      * intros a t' E. pose proof (staking_tx_ok true evs s) as Hk. rewrite E in Hk.
        unfold eqon in Hk. injection Hk; intros; assumption.
      * eapply (tri_del _ true); [apply staking_tx_del|lia|lia].
  - lia.
  - lia.
  - intros _ t1 HJ1 _ _ [[_ Ht] Hr]. apply Rn_size in Hr.
    eapply tri_bind; [apply end_block_sao_tri with (B := B); try assumption|lia|lia|].
    + intros l El. rewrite Ht in El. specialize (Hl l El). nia.
    + intros _ t2 _ _ _ _.
      eapply tri_bind; [eapply (tri_del _ true 0 0); [apply end_block_node_del|lia|lia]|lia|lia|].
      intros _ t3 _ _ _ _. eapply tri_conseq; [eapply (tri_del _ true 0 0); [apply end_block_model_del|lia|lia]|lia|lia|auto].
Qed.

Theorem step_ids_partial : forall cx s op,
  Inv_ids s -> counts_small s -> sizes_small cx s op -> complete_refs_ok s op ->
  Inv_ids (fst (step cx s op)) /\ order_count s <= order_count (fst (step cx s op)) /\
  shard_count s <= shard_count (fst (step cx s op)) /\
  (forall id o, orders (fst (step cx s op)) !! id = Some o -> orders s !! id = None -> order_count s <= id) /\
  (forall id sh, shards (fst (step cx s op)) !! id = Some sh -> shards s !! id = None -> shard_count s <= id).
Proof.
  intros cx s op Hinv [[Hc1 Hc1'] [Hc2 Hc2']] Hsz Hrefs.
  apply (J_concl s). pose proof (J_init s Hinv) as HJ.
  assert (Hdel : forall (m : M unit), mok Rdel true m -> J s (deliver m s).1.1).
  { intros m Hm. eapply (deliver_J s 0 0); [eapply (tri_del _ true); [exact Hm|lia|lia]|exact HJ| |];
      unfold two64, two63 in *; lia. }
  assert (Hpre : forall N, N <= two31 * two31 -> order_count s + N < two64 /\ shard_count s + N < two64).
  { intros N HN. unfold two64, two63, two31 in *. lia. }
  rewrite step_state. destruct op; cbn [tx_of]; cbn [sizes_small complete_refs_ok] in Hsz, Hrefs.
  - eapply (block_J s 0 0); [eapply (tri_del _ true); [apply begin_block_del|lia|lia]|exact HJ| |];
      unfold two64, two63 in *; lia.
  - (* EndBlock. [two31 * two31]: at most 2^31 timed-out orders (the list bound of [sizes_small]) times at most 2^31 nodes *)
    destruct Hsz as [Hn Hl].
    eapply (block_J s 0 (two31 * two31)); [apply end_block_tri; try assumption|exact HJ| |]; try (apply Hpre; unfold two31; lia).
    + intros l El. specialize (Hl l El). unfold two31 in *. nia.
    + unfold two31; lia.
  - apply Hdel, lift_did_del.
  - apply Hdel, node_create_del.
  - apply Hdel, node_reset_del.
  - apply Hdel, add_vstorage_del.
  - apply Hdel, remove_vstorage_del.
  - apply Hdel. apply mok_bind; try exact _; [apply claim_reward_del|intros; apply mok_ret; exact _].
  - eapply (deliver_J s 1 (Z.max 0 (st_replica m))); [apply sao_store_tri; try assumption; lia|exact HJ| |];
      apply Hpre; unfold two31 in *; lia.
  - destruct (orders s !! oid) as [o|] eqn:Eo.
    + eapply (deliver_J s 0 (Z.max 0 (o_replica o)));
        [apply sao_ready_tri; try assumption; [intros o' Eo'; rewrite Eo in Eo'; injection Eo' as <-; lia|lia]|exact HJ| |];
        apply Hpre; specialize (Hsz o eq_refl); unfold two31 in *; lia.
    + eapply (deliver_J s 0 0); [apply sao_ready_tri; try assumption; [intros o' Eo'; rewrite Eo in Eo'; discriminate|lia]|exact HJ| |];
        apply Hpre; unfold two31; lia.
  - eapply (deliver_J s 0 0); [apply sao_complete_tri; try assumption|exact HJ| |]; apply Hpre; unfold two31; lia.
  - apply Hdel, sao_cancel_del.
  - eapply (deliver_J s _ 0); [apply sao_renew_tri; try assumption|exact HJ| |]; apply Hpre; unfold two31 in *; lia.
  - apply Hdel, sao_terminate_del.
  - destruct Hsz as [Hd Hm].
    eapply (deliver_J s 0 _); [apply sao_migrate_tri with (Mx := two31); try assumption|exact HJ| |].
    + intros d m Em. specialize (Hm d m Em). lia.
    + unfold two31; lia.
    + apply Hpre; unfold two31; lia.
    + apply Hpre. unfold two31 in *. nia.
  - apply Hdel, sao_update_permission_del.
  - apply Hdel, sao_report_faults_del.
  - apply Hdel, sao_recover_faults_del.
  - apply Hdel, send_strict_del.
  - apply Hdel, staking_tx_del.
  - destruct (staking_tx evs s); try exact HJ; (eapply J_Rdel; [apply Rdel_frame; reflexivity|exact HJ]).
Qed.
Print Assumptions step_ids_partial.

(* the statement without the referential-integrity hypothesis is false *)
Module IdsWitness.
  (* order 1 holds a completed shard 2 of provider "A" that names the missing order 4, and a
     migrating shard 3 from "A" to "B"; "B" completes the migration *)
  Definition w_o1 : Order := mkOrder "B" "did:key:x" "B" "cid" 1000 OrderCompleted 1 [2;3] 1 1 1 0 10 "d" "c" 0 "".
  Definition w_old : Shard := mkShard 4 ShardCompleted 1 "cid" 0 "" "A" 100 0 [].
  Definition w_new : Shard := mkShard 1 ShardMigrating 1 "cid" 0 "A" "B" 0 0 [].
  Definition w_meta : Meta := mkMeta "did:key:x" "" "" 1 [] "cid" [] "" 0 "c" "" 1000 0 [] [] MetaComplete [].
  Definition w_s : State :=
    mkState did_empty ∅ (<["A" := mkPledge 0 0 0 0 10 1]> (<["B" := mkPledge 0 0 0 0 10 0]> ∅)) ∅
            (Some (mkPool 0 0 0 0 0 0 20 0)) None ∅ ∅ ∅ (mkNParams 0 0 0 0 1 0 "" 0 0 0 0)
            (<[1 := w_o1]> ∅) 5 (<[2 := w_old]> (<[3 := w_new]> ∅)) 5
            (<["d" := w_meta]> ∅) ∅ ∅ ∅ ∅ (<["sao-A" := mkWorker 1 0 0 0]> ∅) ∅ 0 ∅ ∅ 0.
  Definition w_cx : Ctx := {| cx_height := 10; cx_chain := "c"; cx_time := 0; cx_seed := 0 |}.
  Definition w_op : Op := OComplete "B" "B" 1 "cid2" 1 true.

  Lemma w_inv : Inv_ids w_s.
  Proof.
    split; intros id x H.
    - change (orders w_s) with (<[1 := w_o1]> (∅ : gmap Z Order)) in H. change (order_count w_s) with 5.
      apply lookup_insert_Some in H. destruct H as [[<- _]|[_ H]]; [lia|]. rewrite lookup_empty in H. discriminate.
    - change (shards w_s) with (<[2 := w_old]> (<[3 := w_new]> (∅ : gmap Z Shard))) in H. change (shard_count w_s) with 5.
      apply lookup_insert_Some in H. destruct H as [[<- _]|[_ H]]; [lia|].
      apply lookup_insert_Some in H. destruct H as [[<- _]|[_ H]]; [lia|]. rewrite lookup_empty in H. discriminate.
  Qed.
End IdsWitness.

Theorem step_ids_refuted :
  exists cx s op, Inv_ids s /\ counts_small s /\ counts_small (fst (step cx s op)) /\ sizes_small cx s op /\
    ~ (Inv_ids (fst (step cx s op)) /\ order_count s <= order_count (fst (step cx s op)) /\
       shard_count s <= shard_count (fst (step cx s op)) /\
       (forall id o, orders (fst (step cx s op)) !! id = Some o -> orders s !! id = None -> order_count s <= id) /\
       (forall id sh, shards (fst (step cx s op)) !! id = Some sh -> shards s !! id = None -> shard_count s <= id)).
Proof.
  exists IdsWitness.w_cx, IdsWitness.w_s, IdsWitness.w_op.
  assert (E1 : order_count (fst (step IdsWitness.w_cx IdsWitness.w_s IdsWitness.w_op)) = 5) by (vm_compute; reflexivity).
  assert (E2 : shard_count (fst (step IdsWitness.w_cx IdsWitness.w_s IdsWitness.w_op)) = 5) by (vm_compute; reflexivity).
  assert (E3 : is_Some (orders (fst (step IdsWitness.w_cx IdsWitness.w_s IdsWitness.w_op)) !! 0)) by (vm_compute; eexists; reflexivity).
  split; [apply IdsWitness.w_inv|].
  split; [unfold counts_small, two63; cbn; lia|].
  split; [unfold counts_small; rewrite E1, E2; unfold two63; lia|].
  split; [exact I|].
  intros (_ & _ & _ & H & _). destruct E3 as [o E3].
  specialize (H 0 o E3 eq_refl). cbn in H. lia.
Qed.
Print Assumptions step_ids_refuted.
