(* C20, the "validator change" clause: when a validator is bonded, begins unbonding or is removed, the staking module
   calls the node module's hook for that validator; after it, every delegator node of the validator that still holds
   the super role satisfies the three requirements in the committed state -- no residue is involved (the hook runs
   without an account, so nothing is subtracted from the validator's total). *)
From SaoVerif Require Import Base.Prelude Base.Ints Base.Dec Model.Did Model.Types Model.Monad Model.Bank Model.Select
     Model.Node Model.Storage Model.Sao Model.Hooks Model.App Model.Spec Proofs.HooksFacts.

Theorem val_hook_supers_sound : forall val s s' k x n',
  st_event (EvValHook val) s = Ok tt s' ->
  dels s !! k = Some x -> dl_val x = val ->
  nodes s' !! dl_del x = Some n' -> n_val n' = val -> n_role n' = 1 -> super_ok s' (dl_del x) n'.
Proof.
  intros val s s' k x n' H Hk Hxv Hn' Hnv Hr. cbn [st_event] in H.
  apply verify_super_Ok in H as (sub & [= <-] & _ & _ & Q).
  apply super_ok_hook. rewrite Hnv. exact (Q k x Hk Hxv n' Hn' (or_intror Hnv) Hr).
Qed.
Print Assumptions val_hook_supers_sound.

Theorem val_hook_frame : forall val s s', st_event (EvValHook val) s = Ok tt s' ->
  pg s' = 0 /\ pledges s' = pledges s /\ nparams s' = nparams s /\ vals s' = vals s /\ dels s' = dels s.
Proof.
  intros val s s' H. cbn [st_event] in H.
  apply verify_super_Ok in H as (sub & _ & [(Q1 & Q2 & Q3 & Q4) _] & Hpg & _). auto.
Qed.
Print Assumptions val_hook_frame.
