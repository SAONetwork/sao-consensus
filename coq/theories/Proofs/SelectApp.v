(* Placement at the call sites: what GetSps / RandomSP return inside the handlers. *)
From SaoVerif Require Import Base.Prelude Base.Ints Base.Dec Model.Did Model.Types Model.Monad Model.Bank Model.Select
     Model.Node Model.Storage Model.Sao Proofs.SelectFacts.
From RecordUpdate Require Import RecordUpdate.
Import RecordSetNotations.

(* The sign of the seed does not matter ([random_sp_sound]); the hypothesis is the one the call-site theorems of
   Properties/C15 carry. *)
Lemma random_sp_m_spec cx count ignore size s sps s' :
  0 <= cx_seed cx -> random_sp_m cx count ignore size s = Ok sps s' ->
  NoDup sps /\
  (forall a, In a sps -> exists n, nodes s !! a = Some n /\ eligible (pledges s) size (mkCand a n) = true /\ in_list a ignore = false) /\
  Z.of_nat (length sps) <= Z.max 0 count /\
  nodes s' = nodes s /\ pledges s' = pledges s /\ orders s' = orders s /\ shards s' = shards s /\ bal s' = bal s.
Proof.
  intros _ H. unfold random_sp_m, bind, get in H.
  destruct (random_sp (nodes s) (pledges s) (default 0 (round s)) (cx_seed cx) count ignore size) as [[cands r]| |] eqn:E;
    try discriminate.
  unfold modify, ret in H. injection H as <- <-.
  destruct (random_sp_sound _ _ _ _ _ _ _ _ _ E) as (Hnd & Hall & Hlen).
  split; [exact Hnd|]. split.
  - intros a Ha. apply in_map_iff in Ha as (c & <- & Hc).
    destruct (Hall c Hc) as (Hn & Hel & Hig).
    exists (c_node c). destruct c as [ca cn]. simpl in *. auto.
  - split; [rewrite map_length; exact Hlen|]. cbn. auto.
Qed.

(* operation 1 is a new order: GetSps rejects the request rather than under-replicate *)
Lemma get_sps_new_spec cx o data s sps s' :
  0 <= cx_seed cx -> o_op o = 1 -> get_sps cx o data s = Ok sps s' ->
  Z.of_nat (length sps) = o_replica o /\ 0 < o_replica o /\ NoDup sps /\
  (forall a, In a sps -> exists n, nodes s !! a = Some n /\ eligible (pledges s) (i64 (o_size o)) (mkCand a n) = true).
Proof.
  intros Hseed Hop H. unfold get_sps in H. rewrite Hop in H.
  replace (1 =? 1) with true in H by reflexivity.
  unfold bind in H.
  destruct (random_sp_m cx (o_replica o) [] (i64 (o_size o)) s) as [l s1|e s1|e|] eqn:E; try discriminate.
  destruct ((o_replica o <=? 0) || (Z.of_nat (length l) <? o_replica o)) eqn:C; [discriminate|].
  unfold ret in H. injection H as <- <-.
  apply orb_false_iff in C as [C1 C2].
  destruct (random_sp_m_spec _ _ _ _ _ _ _ Hseed E) as (Hnd & Hall & Hlen & _).
  split; [lia|]. split; [lia|]. split; [exact Hnd|].
  intros a Ha. destruct (Hall a Ha) as (n & Hn & Hel & _). eauto.
Qed.
