(* C16, history level: identifiers stay below their counters along every run, the counters
   never decrease, an identifier that has existed is never given to a new record again, and
   identifiers increase with creation order. Lifted from [step_ids_partial] (Proofs/Frame.v) by
   induction over the operation list; the side conditions are required at every step of the
   run ([ids_ok_along]): counters below 2^63, the per-call size bounds, and -- at a Complete --
   that every shard names an existing order (implied by referential integrity, C13). *)
From SaoVerif Require Import Base.Prelude Base.Ints Base.Dec Model.Did Model.Types Model.Monad Model.Bank Model.Select
     Model.Node Model.Storage Model.Sao Model.Hooks Model.App Model.Spec Model.Inv Model.Monitors Proofs.Frame Proofs.RefInt.

Fixpoint ids_ok_along (tr : list (Ctx * Op)) (s : State) : Prop :=
  match tr with
  | [] => True
  | (cx, op) :: tr' =>
      counts_small s /\ sizes_small cx s op /\ complete_refs_ok s op /\ ids_ok_along tr' (fst (step cx s op))
  end.

Lemma ids_ok_along_app tr1 tr2 s :
  ids_ok_along (tr1 ++ tr2) s <-> ids_ok_along tr1 s /\ ids_ok_along tr2 (run tr1 s).
Proof.
  revert s. induction tr1 as [|[cx op] tr1 IH]; intros s; cbn [app ids_ok_along].
  - unfold run; cbn. tauto.
  - rewrite run_cons, IH. tauto.
Qed.

Theorem run_ids_partial : forall tr s,
  Inv_ids s -> ids_ok_along tr s ->
  Inv_ids (run tr s) /\ order_count s <= order_count (run tr s) /\ shard_count s <= shard_count (run tr s).
Proof.
  intros tr s Hinv Hok.
  apply (run_preserves (fun t => Inv_ids t /\ order_count s <= order_count t /\ shard_count s <= shard_count t) ids_ok_along);
    [|exact Hok|split; [exact Hinv|lia]].
  intros cx op tr' t (Hc & Hsz & Hr & Hok') (Hi & Ho & Hs).
  destruct (step_ids_partial cx t op Hi Hc Hsz Hr) as (Hi' & Ho' & Hs' & _). split; [split; [exact Hi'|lia]|exact Hok'].
Qed.

Lemma last_step_new tr cx op s :
  Inv_ids s -> ids_ok_along (tr ++ [(cx, op)]) s ->
  (forall id o, orders (run (tr ++ [(cx, op)]) s) !! id = Some o -> orders (run tr s) !! id = None -> order_count s <= id) /\
  (forall id sh, shards (run (tr ++ [(cx, op)]) s) !! id = Some sh -> shards (run tr s) !! id = None -> shard_count s <= id).
Proof.
  intros Hinv Hok. apply ids_ok_along_app in Hok as [Hok1 Hok2]. cbn [ids_ok_along] in Hok2. destruct Hok2 as (Hc & Hsz & Hr & _).
  destruct (run_ids_partial tr s Hinv Hok1) as (Hinv1 & Hm1 & Hm2).
  destruct (step_ids_partial cx (run tr s) op Hinv1 Hc Hsz Hr) as (_ & _ & _ & Hn1 & Hn2).
  rewrite run_snoc. split; intros id x Hx Hgone; [specialize (Hn1 id x Hx Hgone)|specialize (Hn2 id x Hx Hgone)]; lia.
Qed.

(* the state [s] the run starts from stands for any earlier state *)
Theorem order_id_never_reused : forall tr cx op s id,
  Inv_ids s -> ids_ok_along (tr ++ [(cx, op)]) s ->
  is_Some (orders s !! id) -> orders (run tr s) !! id = None ->
  orders (run (tr ++ [(cx, op)]) s) !! id = None.
Proof.
  intros tr cx op s id Hinv Hok [o Ho] Hgone.
  destruct (orders (run (tr ++ [(cx, op)]) s) !! id) as [o'|] eqn:E; [|reflexivity].
  pose proof (proj1 (last_step_new tr cx op s Hinv Hok) id o' E Hgone). destruct Hinv as [Hi _]. specialize (Hi id o Ho). lia.
Qed.

Theorem shard_id_never_reused : forall tr cx op s id,
  Inv_ids s -> ids_ok_along (tr ++ [(cx, op)]) s ->
  is_Some (shards s !! id) -> shards (run tr s) !! id = None ->
  shards (run (tr ++ [(cx, op)]) s) !! id = None.
Proof.
  intros tr cx op s id Hinv Hok [o Ho] Hgone.
  destruct (shards (run (tr ++ [(cx, op)]) s) !! id) as [o'|] eqn:E; [|reflexivity].
  pose proof (proj2 (last_step_new tr cx op s Hinv Hok) id o' E Hgone). destruct Hinv as [_ Hi]. specialize (Hi id o Ho). lia.
Qed.

Theorem order_ids_increase : forall tr cx op s id1 id2,
  Inv_ids s -> ids_ok_along (tr ++ [(cx, op)]) s ->
  is_Some (orders s !! id1) ->
  orders (run tr s) !! id2 = None -> is_Some (orders (run (tr ++ [(cx, op)]) s) !! id2) ->
  id1 < id2.
Proof.
  intros tr cx op s id1 id2 Hinv Hok [o1 Ho1] Habs [o2 Hnew2].
  pose proof (proj1 (last_step_new tr cx op s Hinv Hok) id2 o2 Hnew2 Habs). destruct Hinv as [Hi _]. specialize (Hi id1 o1 Ho1). lia.
Qed.

Theorem shard_ids_increase : forall tr cx op s id1 id2,
  Inv_ids s -> ids_ok_along (tr ++ [(cx, op)]) s ->
  is_Some (shards s !! id1) ->
  shards (run tr s) !! id2 = None -> is_Some (shards (run (tr ++ [(cx, op)]) s) !! id2) ->
  id1 < id2.
Proof.
  intros tr cx op s id1 id2 Hinv Hok [o1 Ho1] Habs [o2 Hnew2].
  pose proof (proj2 (last_step_new tr cx op s Hinv Hok) id2 o2 Hnew2 Habs). destruct Hinv as [_ Hi]. specialize (Hi id1 o1 Ho1). lia.
Qed.

(** ** non-vacuity: a run that creates an order and a shard satisfies the side conditions *)

Definition ex_ids_run : list (Ctx * Op) :=
  [ (W.cxh 5, OStore W.store); (W.cxh 6, OComplete "T" "T" 1 "cid" 1000000 true); (W.cxh 7, ORenew W.renew) ].

Example ids_ok_along_nonvacuous :
  Inv_ids W.s0 /\ ids_ok_along ex_ids_run W.s0 /\
  order_count W.s0 = 1 /\ order_count (run ex_ids_run W.s0) = 3 /\
  orders W.s0 !! 1 = None /\ is_Some (orders (run ex_ids_run W.s0) !! 1) /\ is_Some (orders (run ex_ids_run W.s0) !! 2) /\
  is_Some (shards (run ex_ids_run W.s0) !! 1).
Proof.
  unfold run. cbn [ids_ok_along ex_ids_run fold_left fst snd].
  set (e1 := fst (step _ W.s0 _)). set (e2 := fst (step _ e1 _)). set (e3 := fst (step _ e2 _)).
  assert (V : (mon_ids W.s0, counts_b W.s0, counts_b e1, refs_b e1, counts_b e2,
               bool_decide (is_Some (orders e3 !! 1)), bool_decide (is_Some (orders e3 !! 2)),
               bool_decide (is_Some (shards e3 !! 1)), order_count W.s0, order_count e3, orders W.s0 !! 1)
              = (true, true, true, true, true, true, true, true, 1, 3, None))
    by (vm_compute; reflexivity).
  clearbody e1 e2 e3. revert V. generalize W.s0. intros s V. injection V as B1 B2 B3 B4 B5 B6 B7 B8 H1 H3 Hn.
  apply bool_decide_eq_true in B6, B7, B8.
  split; [exact (mon_ids_sound _ B1)|]. split; [|auto 10].
  split; [exact (counts_b_sound _ B2)|]. split; [vm_compute; reflexivity|]. split; [exact I|].
  split; [exact (counts_b_sound _ B3)|]. split; [exact I|]. split; [exact (refs_b_sound _ B4)|].
  split; [exact (counts_b_sound _ B5)|]. split; [vm_compute; reflexivity|]. split; exact I.
Qed.
