(* Placement at the migration call site (C15): every shard a Migrate transaction creates is a Migrating shard
   handed over by the requesting provider to a provider that is eligible at that moment and differs from the
   provider of every other shard the order lists -- including shards the same transaction created earlier. *)
From SaoVerif Require Import Base.Prelude Base.Ints Base.Dec Model.Did Model.Types Model.Monad Model.Bank Model.Select
     Model.Node Model.Storage Model.Sao Proofs.Frame Proofs.SelectFacts Proofs.SelectApp Proofs.Hoare Model.Inv Model.Monitors Proofs.RefInt Proofs.Placement.
From RecordUpdate Require Import RecordUpdate.
Import RecordSetNotations.

Section Migrate.
  Context (cx : Ctx) (provider : string) (s : State) (Hseed : 0 <= cx_seed cx).

  (* what the theorem says of a shard [sh'] created under [id], read in the final state [t]; [s] is the state the
     transaction started from *)
  Definition good (t : State) (id : Z) (sh' : Shard) : Prop :=
    sh_status sh' = ShardMigrating /\ sh_from sh' = provider /\
    (exists o', orders t !! sh_order sh' = Some o' /\ In id (o_shards o') /\
       forall id0 sh0, In id0 (o_shards o') -> id0 <> id -> shards t !! id0 = Some sh0 -> sh_sp sh0 <> sh_sp sh') /\
    (exists n, nodes s !! sh_sp sh' = Some n /\ eligible (pledges s) (i64 (sh_size sh')) (mkCand (sh_sp sh') n) = true).

  (* the invariant of the loops: what [s] had is kept, the counter bounds the ids, every new shard is [good]; [n] is a
     budget of further shards before the 64-bit counter could wrap *)
  Definition J (n : nat) (t : State) : Prop :=
    shard_count t + Z.of_nat n < two64 /\
    nodes t = nodes s /\ pledges t = pledges s /\ metas t = metas s /\
    (forall id sh, shards s !! id = Some sh -> shards t !! id = Some sh) /\
    fresh_above t /\ 0 <= shard_count t /\
    (forall oid o id, orders t !! oid = Some o -> In id (o_shards o) -> id < shard_count t) /\
    (forall id sh', shards t !! id = Some sh' -> shards s !! id = None -> good t id sh').

  Lemma J_weaken n m t : (m <= n)%nat -> J n t -> J m t.
  Proof. intros Hle [Hb H]. split; [lia|exact H]. Qed.

  (* The loop of [Sao.migrate_one] under a name. The body is the text of its [fix] and has to stay convertible with it:
     [migrate_one_J] installs the name by [change]. *)
  Definition go :=
    fix go (rev_orders : list Z) (commits : list string) : M unit :=
      match rev_orders with
      | [] => ret tt
      | oid :: rest =>
          s1 <- get ;;
          match orders s1 !! oid with
          | None => go rest commits
          | Some o =>
              if in_list (o_commit o) commits then go rest commits else
              let commits' := o_commit o :: commits in
              match shard_by_sp s1 o provider with
              | None => go rest commits'
              | Some (old_id, old) =>
                  if negb (sh_status old =? ShardCompleted) then go rest commits' else
                  let present := omap (fun id => shards s1 !! id) (o_shards o) in
                  if existsb (fun sh => String.eqb (sh_from sh) provider) present then go rest commits' else
                  sps <- random_sp_m cx 1 (map sh_sp present) (i64 (sh_size old)) ;;
                  match sps with
                  | [] => go rest commits'
                  | to :: _ =>
                      nid <- append_shard (mkShard oid ShardMigrating (sh_size old) (sh_cid old) 0 provider to 0 0 []) ;;
                      modify (fun s => s <| orders ::= <[oid := o <| o_shards := o_shards o ++ [nid] |>]> |>) ;;;
                      go rest commits'
                  end
              end
          end
      end.

  Lemma go_J : forall rest commits n,
    ht (J (n + length rest)) (go rest commits) (fun _ => J n) (J n).
  Proof.
    induction rest as [|oid rest IH]; intros commits n.
    { cbn [go]. apply ht_ret. intros t Ht. eapply J_weaken; [|exact Ht]. lia. }
    assert (Hskip : forall c, ht (J (n + length (oid :: rest))) (go rest c) (fun _ => J n) (J n)).
    { intros c. eapply ht_pre; [apply IH|]. intros t Ht. eapply J_weaken; [|exact Ht]. cbn [length]. lia. }
    cbn [go]. apply ht_bind_get. intros t Ht.
    assert (Hskip' : forall c, ht (eq t) (go rest c) (fun _ => J n) (J n)).
    { intros c. eapply ht_pre; [apply Hskip|]. intros ? <-. exact Ht. }
    destruct (orders t !! oid) as [o|] eqn:Eo; [|apply Hskip'].
    destruct (in_list _ _); [apply Hskip'|]. cbv zeta.
    destruct (shard_by_sp t o provider) as [[old_id old]|] eqn:Esp; [|apply Hskip'].
    destruct (negb _); [apply Hskip'|].
    set (present := omap (fun id => shards t !! id) (o_shards o)).
    destruct (existsb _ present) eqn:Efrom; [apply Hskip'|].
    intros t0 <-. unfold bind at 1.
    destruct (random_sp_m cx 1 (map sh_sp present) (i64 (sh_size old)) t) as [sps t1|e t1|e|] eqn:Er; try exact I.
    2:{ (* random_sp_m never returns an error *)
        unfold random_sp_m, bind, get in Er. destruct (random_sp _ _ _ _ _ _ _) as [[c r]| |]; discriminate. }
    destruct (random_sp_m_spec _ _ _ _ _ _ _ Hseed Er) as (_ & Hall & _).
    destruct (random_sp_m_exact _ _ _ _ _ _ _ Er) as (r & ->).
    assert (Ht1 : J (n + length (oid :: rest)) (t <| round := r |>)) by exact Ht.
    destruct sps as [|to sps].
    { eapply (Hskip _ _ Ht1). }
    destruct (Hall to (or_introl eq_refl)) as (nd & Hnd & Hel & Hig).
    (* the append and the re-listing, as one state *)
    set (t1 := t <| round := r |>) in *.
    set (nid := shard_count t1).
    set (nsh := mkShard oid ShardMigrating (sh_size old) (sh_cid old) 0 provider to 0 0 []).
    set (t2 := t1 <| shards ::= <[nid := nsh]> |> <| shard_count := u64 (nid + 1) |>
                  <| orders ::= <[oid := o <| o_shards := o_shards o ++ [nid] |>]> |>).
    change (match go rest (o_commit o :: commits) t2 with Ok a t' => J n t' | Err _ t' => J n t' | _ => True end).
    apply (IH (o_commit o :: commits) n t2).
    destruct Ht as (H7 & H1 & H2 & H3 & H4 & H5 & H6 & H8 & H9).
    assert (Ecnt : shard_count t1 = shard_count t) by reflexivity.
    assert (Hnid : nid = shard_count t) by reflexivity.
    assert (Hu : u64 (nid + 1) = nid + 1).
    { unfold u64. rewrite Z.mod_small; [reflexivity|]. cbn [length] in H7. unfold two64 in *. lia. }
    assert (Hnone : shards t !! nid = None) by (apply H5; lia).
    assert (Ec2 : shard_count t2 = nid + 1) by (rewrite <- Hu; reflexivity).
    assert (Es2 : shards t2 = <[nid := nsh]> (shards t)) by reflexivity.
    assert (Eo2 : orders t2 = <[oid := o <| o_shards := o_shards o ++ [nid] |>]> (orders t)) by reflexivity.
    unfold J. rewrite Ec2, Es2, Eo2.
    split; [cbn [length] in H7; lia|]. split; [exact H1|]. split; [exact H2|]. split; [exact H3|].
    split.
    { intros id sh Hs. destruct (decide (id = nid)) as [->|Hne].
      + rewrite (H4 _ _ Hs) in Hnone. discriminate.
      + rewrite lookup_insert_ne by congruence. apply H4; exact Hs. }
    split.
    { intros id Hid. rewrite Ec2 in Hid. rewrite Es2. rewrite lookup_insert_ne by lia. apply H5. lia. }
    split; [lia|].
    split.
    { intros oid' o' id Ho' Hin.
      destruct (decide (oid' = oid)) as [->|Hne].
      + rewrite lookup_insert in Ho'. injection Ho' as <-. cbn in Hin. apply in_app_or in Hin as [Hin|[<-|[]]]; [|lia].
        specialize (H8 _ _ _ Eo Hin). lia.
      + rewrite lookup_insert_ne in Ho' by congruence. specialize (H8 _ _ _ Ho' Hin). lia. }
    intros id sh' Hsh Hold. unfold good. rewrite Es2, Eo2.
      destruct (decide (id = nid)) as [->|Hne].
    - rewrite lookup_insert in Hsh. injection Hsh as <-. cbn [sh_status sh_from sh_order sh_sp sh_size nsh].
        split; [reflexivity|]. split; [reflexivity|]. split.
        * exists (o <| o_shards := o_shards o ++ [nid] |>). rewrite lookup_insert. split; [reflexivity|].
          split; [cbn; apply in_or_app; right; left; reflexivity|].
          intros id0 sh0 Hin0 Hne0 Hs0. cbn in Hin0. apply in_app_or in Hin0 as [Hin0|[<-|[]]]; [|congruence].
          rewrite lookup_insert_ne in Hs0 by congruence.
          intros Heq. assert (Hig' : in_list to (map sh_sp present) = true).
          { apply in_list_true, elem_of_list_In. rewrite <- Heq. apply in_map. subst present. apply elem_of_list_In, elem_of_list_omap.
            exists id0. split; [apply elem_of_list_In; exact Hin0|exact Hs0]. }
          congruence.
        * exists nd. rewrite <- H1, <- H2. split; [exact Hnd|exact Hel].
    - rewrite lookup_insert_ne in Hsh by congruence.
        destruct (H9 _ _ Hsh Hold) as (G1 & G2 & (o1 & Go1 & Gin & Gd) & G4).
        split; [exact G1|]. split; [exact G2|]. split; [|exact G4]. cbn.
        destruct (decide (sh_order sh' = oid)) as [Eoid|Hoid].
        * (* the order already lists a shard handed over by this provider: the iteration would have skipped it *)
          exfalso. rewrite Eoid, Eo in Go1. injection Go1 as <-.
          assert (Hex : existsb (fun sh => String.eqb (sh_from sh) provider) present = true).
          { apply existsb_exists. exists sh'. split; [|rewrite G2; apply String.eqb_refl].
            subst present. apply elem_of_list_In, elem_of_list_omap. exists id. split; [apply elem_of_list_In; exact Gin|exact Hsh]. }
          congruence.
        * exists o1. rewrite lookup_insert_ne by congruence. split; [exact Go1|]. split; [exact Gin|].
          intros id0 sh0 Hin0 Hne0 Hs0.
          destruct (decide (id0 = nid)) as [->|Hne1].
          -- specialize (H8 _ _ _ Go1 Hin0). lia.
          -- rewrite lookup_insert_ne in Hs0 by congruence. eapply Gd; eauto.
  Qed.

  (* at most one new shard per order of the model [d], and per model of the request *)
  Definition budget (d : string) : nat := match metas s !! d with Some m => length (m_orders m) | None => O end.

  Lemma migrate_one_J d n : ht (J (n + budget d)) (migrate_one cx provider d) (fun _ => J n) (J n).
  Proof.
    unfold migrate_one. apply ht_bind_get. intros t Ht.
    assert (Em : metas t = metas s) by apply Ht. rewrite Em. unfold budget in Ht.
    destruct (metas s !! d) as [meta|].
    - change (ht (eq t) (go (rev (m_orders meta)) []) (fun _ => J n) (J n)).
      eapply ht_pre; [apply go_J|]. intros ? <-. rewrite rev_length. exact Ht.
    - apply ht_ret. intros ? <-. eapply J_weaken; [|exact Ht]. lia.
  Qed.

  Fixpoint budgets (data : list string) : nat := match data with [] => O | d :: r => (budget d + budgets r)%nat end.

  Lemma migrate_all_J : forall data n, ht (J (n + budgets data)) (forM data (migrate_one cx provider)) (fun _ => J n) (J n).
  Proof.
    induction data as [|d r IH]; intros n; cbn [forM budgets].
    - apply ht_ret. intros t Ht. eapply J_weaken; [|exact Ht]. lia.
    - eapply ht_bind.
      + eapply ht_conseq; [apply (migrate_one_J d (n + budgets r))| | |].
        * intros t Ht. eapply J_weaken; [|exact Ht]. lia.
        * intros a t Ht. exact Ht.
        * intros t Ht. eapply J_weaken; [|exact Ht]. lia.
      + intros []. apply IH.
  Qed.
End Migrate.

(* C15 for Migrate. The side conditions hold in every reachable state: the shard counter is above every shard and
   every listed id ([Placement.fresh_above], from [Inv_ids] by [Placement.fresh_of_ids]) and far below 2^64. *)
Theorem migrate_new_shards_fresh : forall cx creator provider data s s',
  sao_migrate cx creator provider data s = Ok tt s' -> 0 <= cx_seed cx ->
  fresh_above s -> 0 <= shard_count s -> shard_count s + Z.of_nat (budgets s data) < two64 ->
  (forall oid o id, orders s !! oid = Some o -> In id (o_shards o) -> id < shard_count s) ->
  forall id sh', shards s' !! id = Some sh' -> shards s !! id = None -> good provider s s' id sh'.
Proof.
  intros cx creator provider data s s' H Hseed Hf H0 Hb Hl id sh' Hnew Hold.
  unfold sao_migrate, bind, get in H.
  destruct (negb _); [discriminate|].
  assert (HJ : J provider s (0 + budgets s data) s).
  { unfold J. refine (conj _ (conj eq_refl (conj eq_refl (conj eq_refl (conj (fun _ _ H => H) (conj Hf (conj H0 (conj Hl _)))))))); [lia|].
    intros i x Hx Hn. rewrite Hx in Hn. discriminate. }
  pose proof (migrate_all_J cx provider s Hseed data 0%nat s HJ) as Hm. rewrite H in Hm.
  destruct Hm as (_ & _ & _ & _ & _ & _ & _ & _ & H9). exact (H9 id sh' Hnew Hold).
Qed.
Print Assumptions migrate_new_shards_fresh.

(** * non-vacuity *)
(* [W.s2]: the state of RefInt.W after "T" completed its shard; the side conditions of the theorem hold there *)
Example migrate_nonvacuous :
  exists s', sao_migrate (W.cxh 7) "T" "T" [W.data] W.s2 = Ok tt s' /\ shards W.s2 !! 2 = None /\
    (exists sh', shards s' !! 2 = Some sh' /\ sh_sp sh' = "S" /\ sh_status sh' = ShardMigrating /\ good "T" W.s2 s' 2 sh') /\
    fresh_above W.s2 /\ shard_count W.s2 = 2 /\ budgets W.s2 [W.data] = 1%nat /\
    (forall oid o id, orders W.s2 !! oid = Some o -> In id (o_shards o) -> id < shard_count W.s2).
Proof.
  (* as in [Placement.timeout_reassign_nonvacuous] *)
  assert (V : match sao_migrate (W.cxh 7) "T" "T" [W.data] W.s2 with
              | Ok _ s' => Some (mon_ids W.s2, shard_count W.s2, shards W.s2 !! 2, budgets W.s2 [W.data],
                                 all_z (orders W.s2) (fun _ o => forallb (fun id => id <? shard_count W.s2) (o_shards o)),
                                 (fun sh => (sh_sp sh, sh_status sh)) <$> shards s' !! 2)
              | _ => None
              end = Some (true, 2, None, 1%nat, true, Some ("S", ShardMigrating)))
    by (vm_compute; reflexivity).
  revert V. generalize W.s2. intros s V.
  destruct (sao_migrate (W.cxh 7) "T" "T" [W.data] s) as [[] s'| | |] eqn:Hrun; try discriminate V.
  injection V as Hm Hc Hnone Hb Hl H2.
  destruct (shards s' !! 2) as [sh'|] eqn:E2; [|discriminate H2]. injection H2 as HS HM.
  apply mon_ids_sound, fresh_of_ids in Hm.
  assert (Hl' : forall oid o id, orders s !! oid = Some o -> In id (o_shards o) -> id < shard_count s).
  { intros oid o id Ho Hin. pose proof (all_z_spec _ _ Hl oid o Ho) as Hid. cbn beta in Hid.
    rewrite forallb_forall in Hid. apply Z.ltb_lt, Hid, Hin. }
  exists s'. split; [reflexivity|]. split; [exact Hnone|]. split.
  - exists sh'. split; [exact E2|]. split; [exact HS|]. split; [exact HM|].
    apply (migrate_new_shards_fresh (W.cxh 7) "T" "T" [W.data] s s' Hrun); try assumption.
    + cbn. lia.
    + lia.
    + cbn [budgets]. unfold two64. lia.
  - split; [exact Hm|]. split; [exact Hc|]. split; [exact Hb|exact Hl'].
Qed.
