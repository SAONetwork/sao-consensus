(* C02, the begin blocker: in every run from a state that satisfies the invariants below, with a block reward of at
   most half the total reward (the complement is finding D19), BeginBlock never panics -- so it never halts the chain.
   The invariants: the pool totals are the sums over providers (Accumulator.run_inv_pool), every provider's capacity
   is 10^6 bytes per pledged coin (Inv_k, proved here for every operation), and the cumulative reward counter stays
   below the total reward (Inv_rem, proved here). *)
From SaoVerif Require Import Base.Prelude Base.Ints Base.Dec Model.Did Model.Types Model.Monad Model.Bank Model.Select
     Model.Node Model.Storage Model.Sao Model.Hooks Model.App Model.Spec Proofs.Sums Proofs.Frame Proofs.Money Proofs.Accumulator.
From RecordUpdate Require Import RecordUpdate.
Import RecordSetNotations.

(** * capacity is 10^6 bytes per pledged coin *)
Definition k_ok (p : Pledge) : Prop := pl_total p = 1000000 * pl_spledged p /\ 0 <= pl_spledged p.
Definition Inv_k (s : State) : Prop :=
  forall k p, pledges s !! k = Some p -> pl_total p = 1000000 * pl_spledged p /\ 0 <= pl_spledged p.
Definition Rk (s s' : State) : Prop := Inv_k s -> Inv_k s'.

Global Instance Frame_Rk : Frame Rk.
Proof.
  split.
  - intros s1 s2 s3 H1 H2 H. auto.
  - intros s s' (E1 & _ & _) H k p Hk. rewrite E1 in Hk. apply (H k p Hk).
Qed.

Lemma Rk_update s s' k p' :
  pledges s' = <[k := p']> (pledges s) ->
  ((forall p, pledges s !! k = Some p -> k_ok p) -> k_ok p') -> Rk s s'.
Proof.
  intros Hpl Hok HI j q Hj. rewrite Hpl in Hj. destruct (decide (j = k)) as [->|Hne].
  - rewrite lookup_insert in Hj. injection Hj as <-. apply Hok. intros p Hp. apply (HI k p Hp).
  - rewrite lookup_insert_ne in Hj by congruence. apply (HI j q Hj).
Qed.

Lemma rewrites_Rk s s' : rewrites s s' -> Rk s s'.
Proof.
  intros (k & p' & po & po' & dT & dS & (Hpl & _) & _ & (Ht & Hs & _ & _ & a & Ha & Hm)).
  apply (Rk_update s s' k p' Hpl). intros Hold. unfold k_ok.
  assert (Ho : from_option pl_total 0 (pledges s !! k) = 1000000 * from_option pl_spledged 0 (pledges s !! k) /\
               0 <= from_option pl_spledged 0 (pledges s !! k)).
  { destruct (pledges s !! k) as [p|]; cbn; [apply Hold; reflexivity|lia]. }
  rewrite size_of_coins, size_of_coins_ceil in Hm. destruct Hm as [[-> ->]|(-> & -> & Hsp)]; lia.
Qed.

Lemma Rk_bump s k p x :
  pledges s !! k = Some p -> Rk s (s <| pledges ::= <[k := p <| pl_shpledged := x |>]> |>).
Proof.
  intros Hp. eapply (Rk_update s _ k); [unfold set; cbn; reflexivity|].
  intros Hold. destruct (Hold p Hp) as [H1 H2]. unfold k_ok; cbn. split; assumption.
Qed.

Global Instance FramePl_Rk : FramePl Rk.
Proof. split; [apply (w_shard_pledge rewrites_Rk)|apply (w_shard_release rewrites_Rk)|apply Rk_bump]. Qed.

Lemma claim_Rk c s s' : claim_post c s s' -> Rk s s'.
Proof.
  intros (p0 & q & Hp0 & Hpl & _ & _ & _ & Ht & Hs & _). apply (Rk_update s s' c q Hpl).
  intros Hold. unfold k_ok. rewrite Ht, Hs. apply (Hold p0 Hp0).
Qed.

Lemma begin_block_Rk cx s : Rk s (fst (step cx s OBeginBlock)).
Proof.
  destruct (step_bb_post cx s) as (m & _ & _ & _ & Hpl & _). intros HI k p Hk. rewrite Hpl in Hk. apply (HI k p Hk).
Qed.

Theorem step_inv_k : forall cx s op, Inv_k s -> Inv_k (fst (step cx s op)).
Proof.
  intros cx s op. change (Rk s (fst (step cx s op))).
  destruct (op_cases op) as [->|[[c ->]|[Hb Hc]]].
  - apply begin_block_Rk.
  - destruct (step_claim_any cx s c) as [Hc|Hc]; [exact (claim_Rk _ _ _ Hc)|apply R_same, Hc].
  - apply (step_other_R Rk); [apply rewrites_Rk|exact Hb|exact Hc].
Qed.
Print Assumptions step_inv_k.

(** * the reward counter stays below the total reward *)
Definition Inv_rem (s : State) : Prop := forall po, pool s = Some po -> 0 <= po_reward po < TOTAL_REWARD.
Definition reward_ok (s : State) : Prop := 0 <= np_reward (nparams s) <= TOTAL_REWARD / 2.

Lemma subsidy_below_remaining R r :
  0 <= R <= TOTAL_REWARD / 2 -> 0 <= r < TOTAL_REWARD ->
  r + Z.shiftr R (Z.log2 (TOTAL_REWARD / (TOTAL_REWARD - r))) < TOTAL_REWARD.
Proof.
  intros HR Hr. set (rem := TOTAL_REWARD - r). assert (Hrem : 0 < rem) by (unfold rem; lia).
  set (q := TOTAL_REWARD / rem).
  assert (Hq : 1 <= q).
  { unfold q. apply Z.div_le_lower_bound; [lia|]. unfold rem, TOTAL_REWARD in *. lia. }
  set (a := Z.log2 q). assert (Ha : 0 <= a) by apply Z.log2_nonneg.
  destruct (Z.log2_spec q ltac:(lia)) as [Hlo Hhi]. fold a in Hlo, Hhi.
  rewrite Z.shiftr_div_pow2 by exact Ha.
  assert (Hp : 0 < 2 ^ a) by (apply Z.pow_pos_nonneg; lia).
  (* TOTAL_REWARD < (q + 1) * rem <= 2^(a+1) * rem *)
  assert (Hq1 : TOTAL_REWARD < (q + 1) * rem).
  { unfold q. pose proof (Z.mod_pos_bound TOTAL_REWARD rem Hrem). pose proof (Z.div_mod TOTAL_REWARD rem ltac:(lia)). nia. }
  rewrite Z.pow_succ_r in Hhi by exact Ha.
  assert (Hhalf : TOTAL_REWARD / 2 < 2 ^ a * rem).
  { assert (TOTAL_REWARD = 2 * (TOTAL_REWARD / 2)) by (unfold TOTAL_REWARD; reflexivity). (* the total is even *) nia. }
  assert (Hdiv : R / 2 ^ a < rem).
  { apply Z.div_lt_upper_bound; [exact Hp|]. lia. }
  unfold rem in Hdiv. lia.
Qed.

Lemma begin_block_inv_rem cx s : reward_ok s -> Inv_rem s -> Inv_rem (fst (step cx s OBeginBlock)).
Proof.
  intros [Hr1 Hr2] HI po' Hpo'.
  destruct (step_bb_post cx s) as (m & Hm0 & _ & _ & _ & _ & Hcap & Hpool). specialize (Hcap Hr1).
  destruct (pool s) as [po|] eqn:Hpo; [|destruct Hpool as [Hn _]; congruence].
  destruct Hpool as (_ & po'' & E & Er & _). rewrite E in Hpo'. injection Hpo' as <-.
  destruct (HI po Hpo) as [H1 H2]. rewrite Er. split; [lia|].
  unfold subsidy_cap in Hcap. rewrite Hpo in Hcap. unfold halving_age in Hcap.
  pose proof (subsidy_below_remaining (np_reward (nparams s)) (po_reward po) (conj Hr1 Hr2) (conj H1 H2)). lia.
Qed.

Definition Rr (s s' : State) : Prop :=
  forall po', pool s' = Some po' -> exists po, pool s = Some po /\ po_reward po' = po_reward po.
Global Instance Frame_Rr : Frame Rr.
Proof.
  split.
  - intros s1 s2 s3 H1 H2 po3 H3. destruct (H2 po3 H3) as (po2 & E2 & R2). destruct (H1 po2 E2) as (po1 & E1 & R1).
    exists po1. split; [exact E1|congruence].
  - intros s s' (_ & E & _) po' H. exists po'. split; [congruence|reflexivity].
Qed.
Lemma Rr_pool_same s s' : pool s' = pool s -> Rr s s'.
Proof. intros E po' H. exists po'. split; [congruence|reflexivity]. Qed.

Lemma rewrites_Rr s s' : rewrites s s' -> Rr s s'.
Proof.
  intros (k & p' & po & po' & dT & dS & (_ & Hpo & Hpo' & _) & (_ & Hr & _) & _) po'' H.
  exists po. split; [exact Hpo|congruence].
Qed.

Lemma Rr_bump s k p x :
  pledges s !! k = Some p -> Rr s (s <| pledges ::= <[k := p <| pl_shpledged := x |>]> |>).
Proof. intros _. apply Rr_pool_same. reflexivity. Qed.
Global Instance FramePl_Rr : FramePl Rr.
Proof. split; [apply (w_shard_pledge rewrites_Rr)|apply (w_shard_release rewrites_Rr)|apply Rr_bump]. Qed.

Lemma step_Rr cx s op : op <> OBeginBlock -> Rr s (fst (step cx s op)).
Proof.
  intros Hb. destruct (op_cases op) as [->|[[c ->]|[_ Hc]]]; [contradiction| |].
  - destruct (step_claim_any cx s c) as [(p0 & q & _ & _ & E & _)|Hc]; [apply Rr_pool_same, E|apply R_same, Hc].
  - apply (step_other_R Rr); [apply rewrites_Rr|exact Hb|exact Hc].
Qed.

Theorem step_inv_rem : forall cx s op, reward_ok s -> Inv_rem s -> Inv_rem (fst (step cx s op)).
Proof.
  intros cx s op Hr HI.
  assert (Hd : op = OBeginBlock \/ op <> OBeginBlock) by (destruct op; first [left; reflexivity|right; discriminate]).
  destruct Hd as [->|Hne]; [apply begin_block_inv_rem; assumption|].
  intros po' H. destruct (step_Rr cx s op Hne po' H) as (po & E & R). rewrite R. apply (HI po E).
Qed.

(** * BeginBlock never panics *)
(* [2 <= np_halving] and [0 <= np_apy] are what refutes the division and the negative-reward cause of
   [bb_panic_cause] *)
Definition params_ok (s : State) : Prop :=
  reward_ok s /\ 2 <= np_halving (nparams s) /\ 0 <= np_apy (nparams s).

Lemma pool_storage_of_pledged s po : Inv_pool s -> Inv_k s -> pool s = Some po ->
  po_storage po = 1000000 * po_pledged po /\ 0 <= po_pledged po.
Proof.
  intros HP HK Hpo. destruct (HP po Hpo) as [E1 E2]. rewrite E1, E2. split.
  - apply sum_map_scale. intros k p Hk. apply (HK k p Hk).
  - apply sum_map_nonneg. intros k p Hk. apply (HK k p Hk).
Qed.

Lemma chop_round_nonneg x : 0 <= x -> 0 <= chop_round x.
Proof.
  intros Hx. unfold chop_round. destruct (x <? 0) eqn:E; [apply Z.ltb_lt in E; lia|].
  unfold chop_round_pos. assert (0 <= x / P18) by (apply Z.div_pos; unfold P18; lia).
  repeat match goal with |- context [if ?b then _ else _] => destruct b end; lia.
Qed.

Theorem begin_block_never_panics : forall cx s e,
  Inv_pool s -> Inv_k s -> Inv_rem s -> params_ok s -> begin_block cx s <> Panic e.
Proof.
  intros cx s e HP HK HR ((Hr1 & Hr2) & Hh & Ha) Hpanic.
  pose proof (begin_block_spec cx s) as Hb. rewrite Hpanic in Hb. destruct Hb as (po & Hpo & Hc).
  destruct (pool_storage_of_pledged s po HP HK Hpo) as [Est Hpl]. destruct (HR po Hpo) as [Hp1 Hp2].
  assert (Hhalf : 1 <= np_halving (nparams s) / 2) by (apply Z.div_le_lower_bound; lia).
  assert (Hapy : 0 <= apy_reward s po).
  { unfold apy_reward, dec_trunc, dec_quo_int. apply Z.quot_pos; [|unfold P18; lia]. apply Z.quot_pos; [|lia].
    unfold dec_mul. apply chop_round_nonneg. unfold dec_of_int, P18. nia. }
  unfold bb_panic_cause in Hc. lia.
Qed.
Print Assumptions begin_block_never_panics.

Definition Live (s : State) : Prop := Inv_pool s /\ Inv_k s /\ Inv_rem s /\ params_ok s.

Theorem step_live : forall cx s op, Live s -> Live (fst (step cx s op)).
Proof.
  intros cx s op (HP & HK & HR & Hprm). split; [apply step_inv_pool, HP|]. split; [apply step_inv_k, HK|].
  split; [apply step_inv_rem; [apply Hprm|exact HR]|].
  unfold params_ok, reward_ok. rewrite (step_keeps_nparams cx s op). exact Hprm.
Qed.

Lemma run_live tr : forall s, Live s -> Live (run tr s).
Proof. intros s. apply (run_preserves Live (fun _ _ => True)); [|exact I]. intros cx op _ s0 _ HL. split; [apply step_live, HL|exact I]. Qed.

Theorem run_begin_block_never_halts : forall tr s cx e,
  Live s -> begin_block cx (run tr s) <> Panic e.
Proof.
  intros tr s cx e HL. destruct (run_live tr s HL) as (HP & HK & HR & Hprm). apply begin_block_never_panics; assumption.
Qed.
Print Assumptions run_begin_block_never_halts.

(** ** non-vacuity: the genesis of the accumulator example (empty pledge table, reward 1000, halving 32000000) is live,
    its run pledges capacity, mints three times and pays a claim -- and stays live *)
Example live_nonvacuous :
  Live ex_genesis /\ Live (run ex_trace ex_genesis) /\
  (exists po, pool (run ex_trace ex_genesis) = Some po /\ po_reward po = 3000 /\ 0 < po_pledged po) /\
  forall e, begin_block (ex_cx 5) (run ex_trace ex_genesis) <> Panic e.
Proof.
  assert (HL : Live ex_genesis).
  { split; [apply ex_genesis_inv|]. split; [intros k p Hk; cbn in Hk; rewrite lookup_empty in Hk; discriminate|].
    split; [intros po Hpo; injection Hpo as <-; cbn; unfold TOTAL_REWARD; lia|].
    unfold params_ok, reward_ok; cbn. repeat split; vm_compute; congruence. }
  split; [exact HL|]. split; [apply run_live, HL|]. split.
  - eexists. split; [vm_compute; reflexivity|]. split; [reflexivity|]. vm_compute. reflexivity.
  - intros e. apply run_begin_block_never_halts, HL.
Qed.
