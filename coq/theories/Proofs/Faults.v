(* C19: what a fault report may record and what a recovery may touch.

   [valid_report] is the property's wording, independent of the handler code.
   report_records_only_valid : after an accepted ReportFaults every fault record is either an
     unchanged old one or a record built from one valid entry of the message, filed under the
     reporter's own address with status 1 and penalty 0.
   recover_touches_only_accused : an accepted RecoverFaults changes or deletes only fault
     records that were indexed under the provider the message names. *)
From SaoVerif Require Import Base.Prelude Base.Ints Base.Dec Model.Did Model.Types Model.Monad Model.Bank Model.Select Model.Node Model.Storage Model.Sao Model.Hooks Model.App Model.Spec Proofs.Frame Proofs.HooksFacts.
From RecordUpdate Require Import RecordUpdate.
Import RecordSetNotations.

Definition valid_report (cx : Ctx) (s : State) (p : string) (f : FaultIn) : Prop :=
  fi_provider f = p /\ is_Some (metas s !! fi_data f) /\
  exists o sh, orders s !! fi_order f = Some o /\ o_data o = fi_data f /\
    In (fi_shard f) (o_shards o) /\ shards s !! fi_shard f = Some sh /\ sh_sp sh = fi_provider f /\
    cx_height cx < u64 (sh_created sh + sh_duration sh).

Lemma fault_target_ok_report cx s p f : fault_target_ok cx s p f true = true -> valid_report cx s p f.
Proof.
  unfold fault_target_ok. intros H.
  apply andb_true_iff in H as [H H3]. apply andb_true_iff in H as [H1 H2].
  apply String.eqb_eq in H1. apply bool_decide_eq_true in H2.
  destruct (orders s !! fi_order f) as [o|] eqn:Ho; [|discriminate H3].
  apply andb_true_iff in H3 as [H3 H5]. apply andb_true_iff in H3 as [H3 _].
  apply String.eqb_eq in H3.
  match type of H5 with context [filter ?g ?l] => destruct (filter g l) as [|id r] eqn:F end; [discriminate H5|].
  apply filter_head_elem in F as [Hg%Is_true_true Hin%elem_of_list_In].
  apply andb_true_iff in Hg as [->%Z.eqb_eq Hg2].
  destruct (shards s !! fi_shard f) as [sh|] eqn:Hsh; [|discriminate H5].
  apply String.eqb_eq in Hg2. apply Z.ltb_lt in H5.
  split; [congruence|]. split; [exact H2|]. exists o, sh. repeat split; auto.
Qed.

(** * ReportFaults *)
Section Report.
  Context (cx : Ctx) (c p : string) (fl : list (FaultIn * string)).

  Definition new_valid (s : State) (f : Fault) : Prop :=
    exists fi, In fi (map fst fl) /\ valid_report cx s p fi /\
      f = mkFault (fi_newid fi) (fi_order fi) (fi_data fi) (fi_shard fi) (fi_commit fi) (fi_provider fi) c "+" 1 0.

  Definition Rrep (s s' : State) : Prop :=
    nofault s' = nofault s /\
    forall fid f, faults s' !! fid = Some f -> faults s !! fid = Some f \/ (new_valid s f /\ fid = f_id f).

  Lemma valid_report_frame s s' f : nofault s' = nofault s -> valid_report cx s' p f -> valid_report cx s p f.
  Proof.
    intros E.
    assert (orders s' = orders s /\ shards s' = shards s /\ metas s' = metas s) as (Eo & Es & Em) by (injection E; auto).
    unfold valid_report. rewrite Eo, Es, Em. auto.
  Qed.

  Global Instance Rrep_preorder : PreOrder Rrep.
  Proof.
    split.
    - intros s. split; [reflexivity|]. intros fid f H. left. exact H.
    - intros s1 s2 s3 [E1 H1] [E2 H2]. split; [congruence|].
      intros fid f H. destruct (H2 fid f H) as [H'|[(fi & Hin & Hv & Hf) Hid]]; [apply H1, H'|].
      right. split; [|exact Hid]. exists fi. split; [exact Hin|]. split; [|exact Hf]. eapply valid_report_frame; eassumption.
  Qed.

  Lemma sao_report_faults_rep : mok Rrep true (sao_report_faults cx c p fl).
  Proof.
    unfold sao_report_faults. apply mok_bind_get. intros s0.
    destruct (nodes s0 !! c); [|cbn; reflexivity].
    destruct (negb (is_fishman s0 c)); [cbn; reflexivity|].
    apply (mok_forM_in Rrep true fl). intros [f rawkey] Hin. apply mok_bind_get. intros s.
    destruct (fault_target_ok cx s p f true) eqn:Hok; cbn [negb]; [|cbn; reflexivity].
    destruct (fault_by_sp_shard s (fi_provider f) (fi_shard f)); [cbn; reflexivity|].
    unfold set_fault, modify. split; [reflexivity|].
    intros fid f0 H. cbn in H. apply lookup_insert_Some in H as [[<- <-]|[_ H]]; [|left; exact H].
    right. split; [|reflexivity]. exists f. split; [apply in_map_iff; exists (f, rawkey); auto|].
    split; [apply fault_target_ok_report, Hok|reflexivity].
  Qed.
End Report.

Theorem report_records_only_valid : forall cx s c p fl s' d fid f,
  step cx s (OReportFaults c p fl) = (s', OutTx COk d) -> faults s' !! fid = Some f ->
  faults s !! fid = Some f \/
  (fid = f_id f /\ f_reporter f = c /\ f_status f = 1 /\ f_penalty f = 0 /\
   exists fi, In fi (map fst fl) /\ valid_report cx s p fi /\ f_id f = fi_newid fi /\ f_order f = fi_order fi /\
              f_data f = fi_data fi /\ f_shard f = fi_shard fi /\ f_provider f = p).
Proof.
  intros cx s c p fl s' d fid f E Hf.
  apply (step_tx_ok cx s _ (sao_report_faults cx c p fl)) in E; [|reflexivity].
  pose proof (sao_report_faults_rep cx c p fl s) as H. rewrite E in H.
  destruct H as [_ H]. destruct (H fid f Hf) as [H'|[(fi & Hin & Hv & ->) Hid]]; [left; exact H'|].
  right. cbn. split; [exact Hid|]. do 3 (split; [reflexivity|]). exists fi. split; [exact Hin|]. split; [exact Hv|].
  do 4 (split; [reflexivity|]). apply Hv.
Qed.
Print Assumptions report_records_only_valid.

(* non-vacuity and tightness: the filter is exercised by the correspondence harness; here only that an
   invalid entry (unknown order) leaves the tables untouched *)
Theorem report_unknown_order_ignored : forall cx s c p f raw s' d,
  step cx s (OReportFaults c p [(f, raw)]) = (s', OutTx COk d) -> orders s !! fi_order f = None -> faults s' = faults s.
Proof.
  intros cx s c p f raw s' d E Ho.
  apply (step_tx_ok cx s _ (sao_report_faults cx c p [(f, raw)])) in E; [|reflexivity].
  unfold sao_report_faults, bind, get in E.
  destruct (nodes s !! c); [|discriminate E]. destruct (negb (is_fishman s c)); [discriminate E|].
  cbn [forM] in E. unfold bind, get in E.
  assert (Hf : fault_target_ok cx s p f true = false).
  { unfold fault_target_ok. rewrite Ho. rewrite andb_false_r. reflexivity. }
  rewrite Hf in E. cbn in E. injection E as <-. reflexivity.
Qed.
Print Assumptions report_unknown_order_ignored.

(** * RecoverFaults *)
Global Instance Fault_eq_dec : EqDecision Fault.
Proof. solve_decision. Defined.

Definition fault_keyed (s : State) : Prop := forall fid f, faults s !! fid = Some f -> f_id f = fid.

Section Recover.
  Context (cx : Ctx) (c p : string).

  Definition idx_from (s s' : State) : Prop :=
    forall raw sh fid, fault_idx s' !! raw = Some (p, sh, fid) -> exists raw0 sh0, fault_idx s !! raw0 = Some (p, sh0, fid).

  Definition Rrec (s s' : State) : Prop :=
    fault_keyed s ->
    fault_keyed s' /\ idx_from s s' /\
    forall fid, faults s' !! fid <> faults s !! fid -> exists raw0 sh0, fault_idx s !! raw0 = Some (p, sh0, fid).

  Global Instance Rrec_preorder : PreOrder Rrec.
  Proof.
    split.
    - intros s K. split; [exact K|]. split; [intros raw sh fid H; eauto|]. intros fid H. congruence.
    - intros s1 s2 s3 R1 R2 K1. destruct (R1 K1) as (K2 & I1 & H1). destruct (R2 K2) as (K3 & I2 & H2).
      split; [exact K3|]. split.
      + intros raw sh fid H. destruct (I2 raw sh fid H) as (r & x & H'). apply (I1 r x fid H').
      + intros fid H. destruct (decide (faults s2 !! fid = faults s1 !! fid)) as [E|N].
        * destruct (H2 fid) as (r & x & H'); [congruence|]. apply (I1 r x fid H').
        * apply H1, N.
  Qed.

  Lemma fault_by_sp_shard_idx s sh fo :
    fault_by_sp_shard s p sh = Some fo -> exists raw fid, fault_idx s !! raw = Some (p, sh, fid) /\ faults s !! fid = Some fo.
  Proof.
    unfold fault_by_sp_shard.
    match goal with |- context [filter ?g ?l] => destruct (filter g l) as [|kv r] eqn:F end; [discriminate|].
    apply filter_head_elem in F as [Hg Hin]. destruct kv as [raw [[pr sd] fid]]. cbn in Hg |- *.
    apply Is_true_true in Hg.
    apply andb_true_iff in Hg as [Hg1 Hg2]. apply String.eqb_eq in Hg1. apply Z.eqb_eq in Hg2. subst.
    intros H. exists raw, fid. split; [|exact H].
    apply elem_of_sorted_items. exact Hin.
  Qed.

  Lemma Rrec_set_fault s raw0 sh0 fo rawkey fm :
    fault_idx s !! raw0 = Some (p, sh0, f_id fo) -> f_id fm = f_id fo -> f_provider fm = p ->
    Rrec s (s <| faults ::= <[f_id fm := fm]> |> <| fault_idx ::= <[rawkey := (f_provider fm, f_shard fm, f_id fm)]> |>).
  Proof.
    intros Hi Eid Ep K. cbn. split; [|split].
    - intros fid f H. cbn in H. apply lookup_insert_Some in H as [[<- <-]|[_ H]]; [reflexivity|apply K, H].
    - intros raw sh fid H. cbn in H. apply lookup_insert_Some in H as [[_ H]|[_ H]]; [|eauto].
      injection H as _ _ <-. rewrite Eid. eauto.
    - intros fid H. cbn in H. destruct (decide (fid = f_id fm)) as [->|N]; [rewrite Eid; eauto|].
      rewrite lookup_insert_ne in H by congruence. congruence.
  Qed.

  Lemma Rrec_delete s raw0 sh0 fo rawkey fm g :
    fault_idx s !! raw0 = Some (p, sh0, f_id fo) -> f_id fm = f_id fo ->
    Rrec s (s <| fishing ::= g |> <| faults ::= delete (f_id fm) |> <| fault_idx ::= delete rawkey |>).
  Proof.
    intros Hi Eid K. cbn. split; [|split].
    - intros fid f H. cbn in H. apply lookup_delete_Some in H. apply K, H.
    - intros raw sh fid H. cbn in H. apply lookup_delete_Some in H as [_ H]. eauto.
    - intros fid H. cbn in H. destruct (decide (fid = f_id fm)) as [->|N]; [rewrite Eid; eauto|].
      rewrite lookup_delete_ne in H by congruence. congruence.
  Qed.

  Lemma sao_recover_faults_rec fl : mok Rrec true (sao_recover_faults cx c p fl).
  Proof.
    unfold sao_recover_faults. apply mok_bind_get. intros s0.
    destruct (nodes s0 !! c) as [n|]; [|cbn; reflexivity].
    destruct (String.eqb c p && _); [cbn; reflexivity|].
    destruct (negb (String.eqb c p) && _); [cbn; reflexivity|].
    destruct (pool s0); [|cbn; reflexivity].
    apply (mok_forM Rrec true fl). intros [f rawkey]. apply mok_bind_get. intros s.
    destruct (fault_target_ok cx s p f false) eqn:Hok; cbn [negb]; [|cbn; reflexivity].
    assert (Hp : fi_provider f = p).
    { unfold fault_target_ok in Hok. apply andb_true_iff in Hok as [Hok _]. apply andb_true_iff in Hok.
      destruct Hok as [Hok _]. apply String.eqb_eq in Hok. congruence. }
    rewrite Hp.
    destruct (fault_by_sp_shard s p (fi_shard f)) as [fo|] eqn:Hfo; [|cbn; reflexivity].
    destruct (negb (String.eqb (f_data fo) (fi_data f)) || negb (f_order fo =? fi_order f) || negb (f_shard fo =? fi_shard f)); [cbn; reflexivity|].
    cbv zeta.
    match goal with |- context [match ?u with Some _ => _ | None => ret tt end] => set (upd := u) end.
    assert (Hupd : forall fm, upd = Some fm -> f_id fm = f_id fo /\ f_provider fm = p).
    { intros fm. unfold upd. repeat (match goal with |- context [if ?b then _ else _] => destruct b end);
        intros E; try discriminate E; injection E as <-; cbn; auto. }
    destruct upd as [fm|]; [|cbn; reflexivity]. destruct (Hupd fm eq_refl) as [Eid Ep].
    destruct (fault_by_sp_shard_idx s (fi_shard f) fo Hfo) as (raw0 & fid0 & Hi & Hf0).
    match goal with |- context [if ?b then _ else set_fault _ _] => destruct b end.
    - destruct (negb (f_penalty fm =? 0)); [exact I|]. cbv zeta. destruct (existsb _ _); [exact I|]. unfold bind, modify. intros K.
      assert (E0 : f_id fo = fid0) by (apply K, Hf0). rewrite <- E0 in Hi.
      eapply (Rrec_delete s raw0 (fi_shard f) fo rawkey fm _ Hi Eid K).
    - unfold set_fault, modify. intros K.
      assert (E0 : f_id fo = fid0) by (apply K, Hf0). rewrite <- E0 in Hi.
      exact (Rrec_set_fault s raw0 (fi_shard f) fo rawkey fm Hi Eid Ep K).
  Qed.
End Recover.

Theorem recover_touches_only_accused : forall cx s c p fl s' d fid,
  step cx s (ORecoverFaults c p fl) = (s', OutTx COk d) -> fault_keyed s ->
  faults s' !! fid <> faults s !! fid -> exists raw sh, fault_idx s !! raw = Some (p, sh, fid).
Proof.
  intros cx s c p fl s' d fid E K Hne.
  apply (step_tx_ok cx s _ (sao_recover_faults cx c p fl)) in E; [|reflexivity].
  pose proof (sao_recover_faults_rec cx c p fl s) as H. rewrite E in H.
  destruct (H K) as (_ & _ & H3). apply H3, Hne.
Qed.
Print Assumptions recover_touches_only_accused.

Theorem step_fault_keyed : forall cx s op, fault_keyed s -> fault_keyed (fst (step cx s op)).
Proof.
  intros cx s op K.
  destruct (match op with OReportFaults _ _ _ | ORecoverFaults _ _ _ => true | _ => false end) eqn:Hop.
  - destruct op; try discriminate Hop; rewrite step_state; cbn [tx_of]; rewrite deliver_state.
    + destruct (sao_report_faults cx _ _ _ s) as [a s1|e s1|e|] eqn:E; try exact K.
      epose proof (sao_report_faults_rep cx _ _ _ s) as H. rewrite E in H.
      destruct H as [_ H]. intros fid f Hf. destruct (H fid f Hf) as [H'|[_ ->]]; [apply K, H'|reflexivity].
    + destruct (sao_recover_faults cx _ _ _ s) as [a s1|e s1|e|] eqn:E; try exact K.
      epose proof (sao_recover_faults_rec cx _ _ _ s) as H. rewrite E in H. apply (H K).
  - destruct (faults_only_by_reports cx s op) as (E & _ & _); [intros c p fl ->; discriminate Hop..|].
    unfold fault_keyed. rewrite E. exact K.
Qed.
Print Assumptions step_fault_keyed.

Theorem run_fault_keyed : forall tr s, fault_keyed s -> fault_keyed (run tr s).
Proof.
  intros tr s. apply (run_preserves fault_keyed (fun _ _ => True)); [|exact I].
  intros cx op _ s0 _ K. split; [apply step_fault_keyed, K|exact I].
Qed.
Print Assumptions run_fault_keyed.
