(* C05 / C11 / C02: the data-expiry schedule holds nothing stale and no duplicates, in every reachable state; hence
   the re-slicing loop of removeDataExpireBlock never runs out of bounds (it panics exactly on a duplicate). *)
From SaoVerif Require Import Base.Prelude Base.Ints Base.Dec Model.Did Model.Types Model.Monad Model.Bank Model.Select
     Model.Node Model.Storage Model.Sao Model.Hooks Model.App Model.Spec Model.Inv Model.Monitors Proofs.Frame Proofs.RefInt
     Proofs.Authz Proofs.Hoare Proofs.History Proofs.MetaSched.
From RecordUpdate Require Import RecordUpdate.
Import RecordSetNotations.

(** * the slice machine on a duplicate-free list *)
Lemma rm_loop_nohit data : forall n idx arr len,
  (forall j, (idx <= j)%nat -> arr !! j <> Some data) ->
  rm_expire_loop n idx arr len data = Some (arr, len).
Proof.
  induction n as [|n IH]; intros idx arr len H; cbn [rm_expire_loop]; [reflexivity|].
  destruct (arr !! idx) as [id|] eqn:E; [|reflexivity].
  destruct (String.eqb id data) eqn:Eq; [apply String.eqb_eq in Eq; subst id; exfalso; apply (H idx); [lia|exact E]|].
  apply IH. intros j Hj. apply H. lia.
Qed.

Lemma rm_loop_nodup data : forall n idx arr len,
  (len <= length arr)%nat -> NoDup (take len arr) -> (length arr <= idx + n)%nat ->
  (forall j, (idx <= j)%nat -> (len <= j)%nat -> arr !! j <> Some data) ->
  exists arr' len', rm_expire_loop n idx arr len data = Some (arr', len') /\ (len' <= length arr')%nat /\
    ((arr' = arr /\ len' = len /\ forall j, (idx <= j)%nat -> arr !! j <> Some data) \/
     (exists i, (idx <= i < len)%nat /\ arr !! i = Some data /\ len' = (len - 1)%nat /\
                take len' arr' = take i arr ++ drop (i + 1) (take len arr))).
Proof.
  induction n as [|n IH]; intros idx arr len Hl Hnd Hn Hst; cbn [rm_expire_loop].
  - exists arr, len. split; [reflexivity|]. split; [exact Hl|]. left. split; [reflexivity|]. split; [reflexivity|].
    intros j Hj. rewrite lookup_ge_None_2 by lia. discriminate.
  - destruct (arr !! idx) as [id|] eqn:E.
    2:{ exists arr, len. split; [reflexivity|]. split; [exact Hl|]. left. split; [reflexivity|]. split; [reflexivity|].
        intros j Hj. apply lookup_ge_None in E. rewrite lookup_ge_None_2 by lia. discriminate. }
    destruct (String.eqb id data) eqn:Eq.
    + apply String.eqb_eq in Eq. subst id.
      assert (Hidx : (idx < len)%nat).
      { destruct (le_lt_dec len idx) as [Hge|Hlt]; [|exact Hlt]. exfalso. apply (Hst idx); [lia|exact Hge|exact E]. }
      destruct (Nat.ltb len (idx + 1)) eqn:El; [apply Nat.ltb_lt in El; lia|].
      set (arr' := take idx arr ++ drop (idx + 1) (take len arr) ++ drop (len - 1) arr).
      assert (Hlen' : length arr' = length arr).
      { unfold arr'. rewrite !app_length, take_length, !drop_length, take_length. lia. }
      assert (Htk : take (len - 1) arr' = take idx arr ++ drop (idx + 1) (take len arr)).
      { unfold arr'. rewrite app_assoc. rewrite take_app_le; [|rewrite app_length, take_length, drop_length, take_length; lia].
        apply take_ge. rewrite app_length, take_length, drop_length, take_length. lia. }
      rewrite (rm_loop_nohit data n (S idx) arr' (len - 1)).
      * exists arr', (len - 1)%nat. split; [reflexivity|]. split; [lia|]. right. exists idx.
        split; [lia|]. split; [exact E|]. split; [reflexivity|exact Htk].
      * intros j Hj Ej.
        destruct (le_lt_dec (len - 1) j) as [Hge|Hlt].
        -- (* stale zone of arr': position j >= len-1 holds arr[j] for j >= len, and arr[len-1] at len-1 *)
           unfold arr' in Ej. rewrite app_assoc in Ej. rewrite lookup_app_r in Ej; [|rewrite app_length, take_length, drop_length, take_length; lia].
           rewrite app_length, take_length, drop_length, take_length in Ej. rewrite lookup_drop in Ej.
           replace (len - 1 + (j - (idx `min` length arr + (len `min` length arr - (idx + 1)))))%nat with j in Ej by lia.
           destruct (le_lt_dec len j) as [Hjl|Hjl]; [apply (Hst j); [lia|exact Hjl|exact Ej]|].
           (* j = len - 1 > idx: a second occurrence in the live part *)
           assert (j = (len - 1)%nat) by lia. subst j.
           assert (Hi : take len arr !! idx = Some data) by (rewrite lookup_take by lia; exact E).
           assert (Hj' : take len arr !! (len - 1)%nat = Some data) by (rewrite lookup_take by lia; exact Ej).
           pose proof (NoDup_lookup _ _ _ _ Hnd Hi Hj'). lia.
        -- (* live part of arr' after the hit: old live elements behind idx *)
           assert (Ej' : take (len - 1) arr' !! j = Some data) by (rewrite lookup_take by lia; exact Ej).
           rewrite Htk in Ej'. rewrite lookup_app_r in Ej' by (rewrite take_length; lia).
           rewrite take_length, lookup_drop, lookup_take in Ej' by lia.
           assert (Hi : take len arr !! idx = Some data) by (rewrite lookup_take by lia; exact E).
           assert (Hj' : take len arr !! (idx + 1 + (j - idx `min` length arr))%nat = Some data) by (rewrite lookup_take by lia; exact Ej').
           pose proof (NoDup_lookup _ _ _ _ Hnd Hi Hj'). lia.
    + destruct (IH (S idx) arr len Hl Hnd) as (arr' & len' & E1 & E2 & E3).
      { lia. } { intros j Hj. apply Hst. lia. }
      exists arr', len'. split; [exact E1|]. split; [exact E2|].
      destruct E3 as [(Ea & Eb & Ec)|(i & Hi & E3)]; [left|right; exists i; split; [lia|exact E3]].
      split; [exact Ea|]. split; [exact Eb|]. intros j Hj. destruct (decide (j = idx)) as [->|Hne].
      * rewrite E. intros Hc. injection Hc as ->. rewrite String.eqb_refl in Eq. discriminate.
      * apply Ec. lia.
Qed.

Lemma remove_nth_nodup (l : list string) i d : NoDup l -> l !! i = Some d ->
  NoDup (take i l ++ drop (i + 1) l) /\ ~ In d (take i l ++ drop (i + 1) l) /\
  forall x, x <> d -> (In x (take i l ++ drop (i + 1) l) <-> In x l).
Proof.
  intros Hnd Hi. pose proof (take_drop_middle l i d Hi) as E. rewrite <- Nat.add_1_r in E.
  rewrite <- E in Hnd. apply NoDup_app in Hnd as (H1 & H2 & H3). apply NoDup_cons in H3 as [H4 H5].
  split; [|split].
  - apply NoDup_app. split; [exact H1|]. split; [|exact H5].
    intros x Hx Hx'. apply (H2 x Hx). right. exact Hx'.
  - intros Hin. apply in_app_iff in Hin as [Hin|Hin].
    + apply (H2 d); [apply elem_of_list_In, Hin|left].
    + apply H4, elem_of_list_In, Hin.
  - intros x Hx. rewrite <- E at 3. rewrite !in_app_iff. cbn [In]. split; [tauto|].
    intros [H|[H|H]]; [tauto|congruence|tauto].
Qed.

Lemma remove_data_expire_nodup data h t :
  (forall l, expdata t !! h = Some l -> NoDup l) ->
  exists t', remove_data_expire data h t = Ok tt t' /\ metas t' = metas t /\
    (forall h', h' <> h -> expdata t' !! h' = expdata t !! h') /\
    (forall l', expdata t' !! h = Some l' -> NoDup l' /\ l' <> []) /\
    ~ In data (default [] (expdata t' !! h)) /\
    (forall x, x <> data -> (In x (default [] (expdata t' !! h)) <-> In x (default [] (expdata t !! h)))).
Proof.
  intros Hnd. unfold remove_data_expire, bind, get.
  destruct (expdata t !! h) as [l|] eqn:El.
  2:{ exists t. cbn. rewrite El. repeat split; auto; try discriminate; tauto. }
  specialize (Hnd l eq_refl).
  destruct (rm_loop_nodup data (length l) 0 l (length l)) as (arr' & len' & E1 & E2 & E3).
  { lia. } { rewrite take_ge by lia. exact Hnd. } { lia. } { intros j _ Hj. rewrite lookup_ge_None_2 by lia. discriminate. }
  rewrite E1.
  assert (Hres : NoDup (take len' arr') /\ ~ In data (take len' arr') /\ forall x, x <> data -> (In x (take len' arr') <-> In x l)).
  { destruct E3 as [(-> & -> & Hno)|(i & Hi & Ei & -> & Etk)].
    - rewrite take_ge by lia. split; [exact Hnd|]. split; [|tauto].
      intros Hin. apply elem_of_list_In, elem_of_list_lookup in Hin as [j Hj]. apply (Hno j); [lia|exact Hj].
    - rewrite Etk. rewrite (take_ge l (length l)) by lia. apply remove_nth_nodup; assumption. }
  destruct Hres as (R1 & R2 & R3).
  destruct (take len' arr') as [|y l'] eqn:Et; unfold modify, set; cbn.
  - eexists. split; [reflexivity|]. cbn. split; [reflexivity|]. split; [intros h' Hh; apply lookup_delete_ne; congruence|].
    rewrite lookup_delete. split; [discriminate|]. split; [tauto|]. cbn. intros x Hx. rewrite <- (R3 x Hx). tauto.
  - eexists. split; [reflexivity|]. cbn. split; [reflexivity|]. split; [intros h' Hh; apply lookup_insert_ne; congruence|].
    rewrite lookup_insert. split; [intros l0 E; injection E as <-; split; [exact R1|discriminate]|]. cbn [default].
    split; [exact R2|exact R3].
Qed.

(** * the invariant: nothing stale, no duplicates *)
Definition Inv_xd (s : State) : Prop :=
  forall h l, expdata s !! h = Some l -> NoDup l /\ forall d, In d l -> exists m, metas s !! d = Some m /\ expiry m = h.
Definition Inv_ds (s : State) : Prop := Inv_msched s /\ Inv_xd s.

(* [Rinv Inv_ds]: the lemmas stated with [Rds] below are the generic ones of Proofs/MetaSched.v at [ds_logic] *)
Definition Rds (s s' : State) : Prop := Inv_ds s -> Inv_ds s'.
Global Instance Rds_po : PreOrder Rds.
Proof. exact (Rinv_po Inv_ds). Qed.

(* the invariant while the model [d] of [b] is being rewritten: [d] is listed exactly at [w] (or nowhere), all else is
   as [Inv_ds b] says *)
Definition XO (b : State) (d : string) (w : option Z) (t : State) : Prop :=
  metas t = metas b /\
  (forall h l, expdata t !! h = Some l -> NoDup l /\
     forall d', In d' l -> (d' = d /\ w = Some h) \/ (d' <> d /\ exists m, metas b !! d' = Some m /\ expiry m = h)) /\
  (forall d' m', d' <> d -> metas b !! d' = Some m' -> listed t (expiry m') d') /\
  match w with Some h => listed t h d | None => True end.

Lemma XO_open b d : Inv_ds b -> XO b d (expiry <$> metas b !! d) b.
Proof.
  intros [H1 H2]. split; [reflexivity|]. split; [|split].
  - intros h l Hl. destruct (H2 h l Hl) as [Hn Hs]. split; [exact Hn|]. intros d' Hd'.
    destruct (Hs d' Hd') as (m & Hm & Hx). destruct (decide (d' = d)) as [->|Hne].
    + left. split; [reflexivity|]. rewrite Hm. cbn. rewrite Hx. reflexivity.
    + right. split; [exact Hne|]. exists m. split; assumption.
  - intros d' m' _ Hm'. apply (H1 d' m' Hm').
  - destruct (metas b !! d) as [m|] eqn:Em; [apply (H1 d m Em)|exact I].
Qed.

Lemma ht_xo_keeps {A} b d w (m : M A) : keeps mx m -> ht (XO b d w) m (fun _ => XO b d w) (XO b d w).
Proof.
  intros H t (Hm & Hl & Ho & Hw). specialize (H t). unfold mx in H.
  destruct (m t) as [a t'|e t'|e|]; auto; injection H as Em Ee;
    (split; [congruence|]; split; [intros h l E; rewrite Ee in E; apply (Hl h l E)|];
     split; [intros d' m' Hd Hb; unfold listed; rewrite Ee; apply (Ho d' m' Hd Hb)|];
     destruct w; [unfold listed; rewrite Ee; exact Hw|exact I]).
Qed.

Lemma XO_oth b d w t : XO b d w t -> Oth' b d w t.
Proof. intros (Hm & _ & Ho & Hw). split; [split|]; assumption. Qed.

Lemma ht_xo_remove_at b d w h E : (forall h', w = Some h' -> h' = h) ->
  ht (XO b d w) (remove_data_expire d h) (fun _ => XO b d None) E.
Proof.
  intros Hw t Ht. pose proof (ht_oth_remove b d w h E t (XO_oth b d w t Ht)) as Ko. destruct Ht as (Hm & Hl & Ho & _).
  destruct (remove_data_expire_nodup d h t) as (t' & E1 & Em & Eo & El & Enot & Eiff).
  { intros l E0. apply (Hl h l E0). }
  rewrite E1 in *. destruct Ko as [[Hm' Ho'] _]. split; [exact Hm'|]. split; [|split; [exact Ho'|exact I]].
  intros h0 l E0. destruct (decide (h0 = h)) as [->|Hne].
  - destruct (El l E0) as [Hn _]. split; [exact Hn|]. intros d' Hd'.
    assert (Hd'' : In d' (default [] (expdata t' !! h))) by (rewrite E0; exact Hd').
    destruct (decide (d' = d)) as [->|Hnd]; [contradiction|].
    apply (Eiff d' Hnd) in Hd''. destruct (expdata t !! h) as [l0|] eqn:E00; [|destruct Hd''].
    destruct (Hl h l0 E00) as [_ Hs]. destruct (Hs d' Hd'') as [[Hc _]|R]; [contradiction|right; exact R].
  - rewrite (Eo h0 Hne) in E0. destruct (Hl h0 l E0) as [Hn Hs]. split; [exact Hn|]. intros d' Hd'.
    destruct (Hs d' Hd') as [[_ Hc]|R]; [destruct (Hne (Hw h0 Hc))|right; exact R].
Qed.

Lemma ht_xo_remove b d w E : ht (XO b d (Some w)) (remove_data_expire d w) (fun _ => XO b d None) E.
Proof. apply ht_xo_remove_at. intros h' H. injection H as <-. reflexivity. Qed.
Lemma ht_xo_remove_none b d h E : ht (XO b d None) (remove_data_expire d h) (fun _ => XO b d None) E.
Proof. apply ht_xo_remove_at. discriminate. Qed.

Lemma ht_xo_set b d h E : ht (XO b d None) (set_data_expire d h) (fun _ => XO b d (Some h)) E.
Proof.
  intros t Ht. pose proof (ht_oth_set b d None h E t (XO_oth b d None t Ht)) as Ko. destruct Ht as (Hm & Hl & _).
  unfold set_data_expire, modify in *. destruct Ko as [[Hm' Ho'] Hw']. split; [exact Hm'|]. split; [|split; [exact Ho'|exact Hw']].
  unfold set; cbn. intros h' l E0. destruct (decide (h' = h)) as [->|Hne].
  - rewrite lookup_insert in E0. injection E0 as <-.
    destruct (expdata t !! h) as [l0|] eqn:E00; cbn [default].
    + destruct (Hl h l0 E00) as [Hn Hs]. split.
      * apply NoDup_app. split; [exact Hn|]. split; [|apply NoDup_singleton].
        intros x Hx Hx'. apply elem_of_list_singleton in Hx'. subst x. apply elem_of_list_In in Hx.
        destruct (Hs d Hx) as [[_ Hc]|[Hc _]]; [discriminate|congruence].
      * intros d' Hd'. apply in_app_iff in Hd' as [Hd'|[<-|[]]]; [|left; split; reflexivity].
        destruct (Hs d' Hd') as [[_ Hc]|R]; [discriminate|right; exact R].
    + split; [apply NoDup_singleton|]. intros d' [<-|[]]. left. split; reflexivity.
  - rewrite lookup_insert_ne in E0 by congruence. destruct (Hl h' l E0) as [Hn Hs]. split; [exact Hn|].
    intros d' Hd'. destruct (Hs d' Hd') as [[_ Hc]|R]; [discriminate|right; exact R].
Qed.

Lemma ds_logic : @sched_logic Inv_ds XO.
Proof.
  split.
  - intros b Hi. apply Hi.
  - apply XO_open.
  - intros b d t Ht. split; [apply (sl_close ms_logic b d), XO_oth, Ht|]. destruct Ht as (Hm & Hl & _ & _).
    intros h l E0. destruct (Hl h l E0) as [Hn Hs]. split; [exact Hn|]. intros d' Hd'. rewrite Hm.
    destruct (Hs d' Hd') as [[-> Hw]|(_ & R)]; [|exact R].
    destruct (metas b !! d) as [m|]; [|discriminate Hw]. injection Hw as <-. exists m. split; reflexivity.
  - intros T. apply ht_xo_keeps.
  - intros b d w t t' Ht Hk Ee. destruct (sl_table ms_logic b d w t t' (XO_oth b d w t Ht) Hk Ee) as [[_ Ho'] Hw'].
    destruct Ht as (Hm & Hl & _ & _). split; [reflexivity|]. split; [|split; [exact Ho'|exact Hw']].
    intros h l E0. rewrite Ee in E0. destruct (Hl h l E0) as [Hn Hs]. split; [exact Hn|]. intros d' Hd'.
    destruct (Hs d' Hd') as [Hd|(Hne & R)]; [left; exact Hd|right]. split; [exact Hne|]. rewrite (Hk d' Hne), Hm. exact R.
  - intros b d h. apply ht_xo_remove.
  - intros b d h. apply ht_xo_set.
  - intros h t [H1 H2] Hn. split; [apply (sl_drop ms_logic h t H1 Hn)|].
    intros h' l E0. cbn in E0. apply lookup_delete_Some in E0 as [_ E0]. apply (H2 h' l E0).
Qed.

Lemma inv_of_xo_delete b d t t' :
  XO b d None t -> metas t' = delete d (metas t) -> expdata t' = expdata t -> Inv_ds t'.
Proof.
  intros Ht Em Ee. apply (sl_close ds_logic t' d). rewrite Em, lookup_delete.
  apply (sl_table ds_logic b d None t t' Ht); [intros k Hk; rewrite Em; apply lookup_delete_ne; congruence|exact Ee].
Qed.

(** * the handlers *)
Lemma update_permission_ds owner data ro rw : mok Rds true (update_permission owner data ro rw).
Proof. exact (update_permission_g ds_logic owner data ro rw). Qed.
Lemma update_meta_status_commit_ds cx oid o : mok Rds true (update_meta_status_commit cx oid o).
Proof. exact (update_meta_status_commit_g ds_logic cx oid o). Qed.

Section Handlers.
  Context (cx : Ctx) (Hh : height_ok cx).

  Lemma cancel_order_ds oid : mok Rds true (cancel_order cx oid).
  Proof. exact (cancel_order_g ds_logic cx Hh oid). Qed.
  Lemma handle_timeout_order_ds oid : mok Rds true (handle_timeout_order cx oid).
  Proof. exact (handle_timeout_order_g ds_logic cx Hh oid). Qed.
  Lemma handle_expired_shard_ds sid : mok Rds true (handle_expired_shard cx sid).
  Proof. exact (handle_expired_shard_g ds_logic cx sid). Qed.
End Handlers.

(** * every operation, every run *)
Theorem step_data_schedule : forall cx s op, height_ok cx -> Inv_ds s -> Inv_ds (fst (step cx s op)).
Proof. intros cx s op Hh. exact (sched_step_inv ds_logic cx Hh s op). Qed.
Print Assumptions step_data_schedule.

(* in every reachable state every data model is listed exactly once, at the height its lifetime
   ends, and the schedule lists nothing else -- no stale entry, no duplicate *)
Theorem run_data_schedule : forall tr s,
  Forall (fun co : Ctx * Op => height_ok co.1) tr -> Inv_ds s -> Inv_ds (run tr s).
Proof.
  exact (sched_run_inv ds_logic).
Qed.
Print Assumptions run_data_schedule.

(* C02: in a reachable state the re-slicing loop of removeDataExpireBlock never runs out of bounds *)
Corollary remove_data_expire_never_panics : forall tr s data h e,
  Forall (fun co : Ctx * Op => height_ok co.1) tr -> Inv_ds s -> remove_data_expire data h (run tr s) <> Panic e.
Proof.
  intros tr s data h e Hf Hi. destruct (run_data_schedule tr s Hf Hi) as [_ H2].
  destruct (remove_data_expire_nodup data h (run tr s)) as (t' & E & _); [intros l El; apply (H2 h l El)|].
  rewrite E. discriminate.
Qed.

(* C05 / C11: nothing stale -- an entry of the schedule always names an existing model whose lifetime ends there *)
Corollary scheduled_entry_is_live : forall tr s h l d,
  Forall (fun co : Ctx * Op => height_ok co.1) tr -> Inv_ds s ->
  expdata (run tr s) !! h = Some l -> In d l -> exists m, metas (run tr s) !! d = Some m /\ expiry m = h.
Proof. intros tr s h l d Hf Hi El Hd. destruct (run_data_schedule tr s Hf Hi) as [_ H2]. apply (proj2 (H2 h l El) d Hd). Qed.

(** ** non-vacuity *)
Lemma nodup_strb_NoDup l : nodup_strb l = true -> NoDup l.
Proof.
  induction l as [|x l IH]; cbn; intros H; [constructor|]. apply andb_prop in H as [H1 H2].
  constructor; [|apply IH, H2]. intros Hin. apply elem_of_list_In, In_in_list in Hin. rewrite Hin in H1. discriminate.
Qed.
Lemma mon_expdata_live_sound s : mon_expdata_live s = true -> Inv_xd s.
Proof.
  intros H h l Hl. pose proof (all_z_spec _ _ H h l Hl) as Hb. cbn beta in Hb. apply andb_prop in Hb as [H1 H2].
  split; [apply nodup_strb_NoDup, H1|]. intros d Hd. rewrite forallb_forall in H2. specialize (H2 d Hd).
  destruct (metas s !! d) as [m|]; [|discriminate]. exists m. split; [reflexivity|]. apply Z.eqb_eq in H2. exact H2.
Qed.

Example data_schedule_nonvacuous :
  Inv_ds W.s2 /\ expdata W.s2 !! 3606 = Some [W.data] /\
  Forall (fun co : Ctx * Op => height_ok co.1) History.hist_run /\
  map_to_list (expdata (run History.hist_run W.s2)) = [(3610, [W.data])].
Proof.
  destruct meta_scheduled_nonvacuous as (Hm & (_ & _ & _ & Hx) & Hf & _).
  assert (E : (mon_expdata_live W.s2, map_to_list (expdata (run History.hist_run W.s2))) = (true, [(3610, [W.data])]))
    by (vm_compute; reflexivity).
  apply pair_equal_spec in E as [E1 E2].
  split; [split; [exact Hm|apply mon_expdata_live_sound, E1]|]. auto.
Qed.
