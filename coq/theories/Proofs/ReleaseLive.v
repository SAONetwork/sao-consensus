(* C02: when the release of a shard's collateral panics, and when it cannot. ShardRelease subtracts the shard's
   collateral from the provider's recorded total with sdk.Coin.Sub, which panics on a negative result; called from the
   end blocker (shard expiry, timeout clean-up) the panic halts the chain. The clause [live.release_covered]
   (Model/Monitors.v) is exactly the condition under which no release of a live shard can panic. *)
From SaoVerif Require Import Base.Prelude Base.Ints Base.Dec Model.Did Model.Types Model.Monad Model.Bank Model.Select
     Model.Node Model.Storage Model.Sao Model.Hooks Model.App Model.Monitors Proofs.RefInt.
From RecordUpdate Require Import RecordUpdate.
Import RecordSetNotations.

Lemma settle_shpledged acc p : pl_shpledged (settle acc p) = pl_shpledged p.
Proof. unfold settle. destruct (0 <? pl_total p); reflexivity. Qed.

Lemma repay_debt_no_panic sp rw s : match repay_debt sp rw s with Panic _ | Hang => False | _ => True end.
Proof.
  unfold repay_debt, bind, get. destruct (debts s !! sp) as [d|]; [|exact I].
  destruct (repay_loop d rw) as [r [d'|]]; exact I.
Qed.

Theorem release_covered_never_panics sp sh s p :
  pledges s !! sp = Some p -> sh_pledge sh <= pl_shpledged p ->
  match shard_release sp (Some sh) s with Panic _ | Hang => False | _ => True end.
Proof.
  intros Hp Hle. unfold shard_release, bind at 1, get. rewrite Hp.
  destruct (pool s) as [po|]; [|exact I].
  unfold bind at 1. unfold bind at 1.
  pose proof (repay_debt_no_panic (sh_sp sh) [sh_pledge sh] s) as Hr.
  destruct (repay_debt (sh_sp sh) [sh_pledge sh] s) as [rw s1|e s1|e|]; try exact I; try contradiction.
  unfold bind at 1.
  assert (Hsend : forall t, match (if hd 0 rw =? 0 then ret tt else send_strict (macc NODE) sp (hd 0 rw)) t with Panic _ | Hang => False | _ => True end).
  { intros t. destruct (hd 0 rw =? 0); [exact I|]. unfold send_strict. destruct (_ <=? 0); [exact I|]. destruct (_ <? _); exact I. }
  specialize (Hsend s1).
  destruct ((if hd 0 rw =? 0 then ret tt else send_strict (macc NODE) sp (hd 0 rw)) s1) as [[] s2|e s2|e|]; try exact I; try contradiction.
  unfold bind at 1, coin_sub. rewrite settle_shpledged.
  destruct (pl_shpledged p - sh_pledge sh <? 0) eqn:E; [apply Z.ltb_lt in E; lia|].
  exact I.
Qed.

Theorem release_uncovered_panics sp sh s p po :
  pledges s !! sp = Some p -> pool s = Some po -> sh_sp sh = sp -> debts s !! sp = None ->
  0 < sh_pledge sh <= balance s (macc NODE) -> pl_shpledged p < sh_pledge sh ->
  shard_release sp (Some sh) s = Panic "negative coin amount".
Proof.
  intros Hp Hpo Hsp Hd [Hpos Hbal] Hlt. unfold shard_release, bind at 1, get. rewrite Hp, Hpo.
  unfold bind at 1. unfold bind at 1. unfold repay_debt, bind at 1, get. rewrite Hsp, Hd. cbn [ret hd].
  unfold bind at 1.
  destruct (sh_pledge sh =? 0) eqn:E0; [apply Z.eqb_eq in E0; lia|].
  unfold send_strict.
  destruct (sh_pledge sh <=? 0) eqn:E1; [apply Z.leb_le in E1; lia|].
  destruct (balance s (macc NODE) <? sh_pledge sh) eqn:E2; [apply Z.ltb_lt in E2; lia|].
  unfold bind at 1, coin_sub. rewrite settle_shpledged.
  destruct (pl_shpledged p - sh_pledge sh <? 0) eqn:E; [reflexivity|apply Z.ltb_ge in E; lia].
Qed.

Lemma sumz_nonneg {A} (f : A -> Z) (l : list A) : (forall y, In y l -> 0 <= f y) -> 0 <= sumz l f.
Proof.
  induction l as [|y l IH]; intros Hnn; cbn; [lia|].
  pose proof (Hnn y (or_introl eq_refl)). pose proof (IH (fun z Hz => Hnn z (or_intror Hz))). unfold sumz in *. lia.
Qed.
Lemma sumz_ge_elem {A} (f : A -> Z) (l : list A) x : (forall y, In y l -> 0 <= f y) -> In x l -> f x <= sumz l f.
Proof.
  induction l as [|y l IH]; intros Hnn Hin; [destruct Hin|]. cbn.
  pose proof (Hnn y (or_introl eq_refl)). destruct Hin as [->|Hin].
  - pose proof (sumz_nonneg f l (fun z Hz => Hnn z (or_intror Hz))). unfold sumz in *. lia.
  - pose proof (IH (fun z Hz => Hnn z (or_intror Hz)) Hin). unfold sumz in *. lia.
Qed.

Theorem release_covered_sound s :
  mon_release_covered s = true ->
  (forall id sh, shards s !! id = Some sh -> 0 <= sh_pledge sh) ->
  forall id sh p, shards s !! id = Some sh -> sh_status sh = ShardCompleted -> pledges s !! sh_sp sh = Some p ->
    match shard_release (sh_sp sh) (Some sh) s with Panic _ | Hang => False | _ => True end.
Proof.
  intros Hm Hnn id sh p Hs Hst Hp.
  apply (release_covered_never_panics _ _ _ p Hp).
  unfold mon_release_covered, all_s in Hm. rewrite forallb_forall in Hm.
  specialize (Hm (sh_sp sh, p)). cbn [fst snd] in Hm.
  assert (Hin : In (sh_sp sh, p) (sitems (pledges s))) by (apply elem_of_list_In, elem_of_map_to_list, Hp).
  specialize (Hm Hin). apply Z.leb_le in Hm.
  etransitivity; [|exact Hm].
  apply sumz_ge_elem.
  - intros y Hy. unfold live_shards in Hy. apply in_map_iff in Hy as ([i y'] & <- & Hy).
    apply elem_of_list_In, elem_of_list_filter in Hy as [_ Hy]. apply elem_of_map_to_list in Hy. exact (Hnn _ _ Hy).
  - unfold live_shards. apply in_map_iff. exists (id, sh). split; [reflexivity|].
    apply elem_of_list_In, elem_of_list_filter. split; [|apply elem_of_map_to_list, Hs].
    cbn [snd]. rewrite Hst. rewrite String.eqb_refl. exact I.
Qed.
Print Assumptions release_covered_never_panics.
Print Assumptions release_uncovered_panics.
Print Assumptions release_covered_sound.

(** ** non-vacuity: the state of RefInt.W after its provider "T" completed the shard satisfies the clause, and its one
    completed shard carries collateral; with the provider's recorded total set below that collateral the release
    panics (the shape finding D23 produces on the real chain: scenario d23-expiry-halts) *)
Example release_covered_nonvacuous :
  mon_release_covered W.s2 = true /\
  (exists sh p, shards W.s2 !! 1 = Some sh /\ sh_status sh = ShardCompleted /\ sh_sp sh = "T" /\ pledges W.s2 !! "T" = Some p /\
     0 < sh_pledge sh /\ sh_pledge sh <= pl_shpledged p /\
     shard_release "T" (Some sh) (W.s2 <| pledges ::= <["T" := p <| pl_shpledged := 0 |>]> |>) = Panic "negative coin amount").
Proof.
  split; [vm_compute; reflexivity|].
  eexists. eexists. split; [vm_compute; reflexivity|]. split; [reflexivity|]. split; [reflexivity|].
  split; [vm_compute; reflexivity|]. split; [vm_compute; reflexivity|]. split; [vm_compute; congruence|].
  vm_compute. reflexivity.
Qed.
