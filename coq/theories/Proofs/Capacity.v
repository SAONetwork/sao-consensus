(* C14 / C07 -- per-provider capacity and collateral accounting.

   [Acc s] = Inv_used s /\ Inv_capacity s /\ (every completed shard is held by a pledged provider). *)
From stdpp Require Import relations.
From SaoVerif Require Import Base.Prelude Base.Ints Base.Dec Model.Did Model.Types Model.Monad Model.Bank Model.Select
     Model.Node Model.Storage Model.Sao Model.Hooks Model.App Model.Spec Model.Inv
     Proofs.Frame Proofs.Accumulator Proofs.Money Proofs.Sums.
From RecordUpdate Require Import RecordUpdate.
Import RecordSetNotations.

(** * sums over the shard table *)
Definition lsum (f : Shard -> Z) (sp : string) (m : gmap Z Shard) : Z :=
  sum_map (fun sh => if live_at sp sh then f sh else 0) m.

Lemma live_sum_lsum f sp s : live_sum f sp s = lsum f sp (shards s).
Proof. reflexivity. Qed.

Definition contrib (f : Shard -> Z) (sp : string) (o : option Shard) : Z :=
  match o with Some sh => if live_at sp sh then f sh else 0 | None => 0 end.

Lemma lsum_empty f sp : lsum f sp ∅ = 0.
Proof. apply sum_map_empty. Qed.

Lemma lsum_insert f sp m k v : lsum f sp (<[k:=v]> m) = lsum f sp m - contrib f sp (m !! k) + contrib f sp (Some v).
Proof. unfold lsum. rewrite sum_map_insert. unfold contrib. destruct (m !! k); reflexivity. Qed.

Lemma lsum_insert_fresh f sp m k v : m !! k = None -> lsum f sp (<[k:=v]> m) = lsum f sp m + contrib f sp (Some v).
Proof. intros E. rewrite lsum_insert, E. cbn. lia. Qed.

Lemma lsum_delete f sp m k : lsum f sp (delete k m) = lsum f sp m - contrib f sp (m !! k).
Proof.
  destruct (m !! k) as [x|] eqn:E.
  - unfold lsum. rewrite sum_map_delete, E. cbn. lia.
  - rewrite delete_notin by exact E. cbn. lia.
Qed.

Lemma live_at_true sp sh : live_at sp sh = true <-> sh_status sh = ShardCompleted /\ sh_sp sh = sp.
Proof.
  unfold live_at. rewrite andb_true_iff, Z.eqb_eq, String.eqb_eq. tauto.
Qed.

Definition nl (o : option Shard) : Prop := match o with Some sh => sh_status sh <> ShardCompleted | None => True end.

Lemma contrib_live f sp sh : sh_status sh = ShardCompleted -> sh_sp sh = sp -> contrib f sp (Some sh) = f sh.
Proof. intros E1 E2. cbn. rewrite (proj2 (live_at_true sp sh)) by auto. reflexivity. Qed.

Lemma contrib_other f sp sh : sh_sp sh <> sp -> contrib f sp (Some sh) = 0.
Proof. intros E. cbn. destruct (live_at sp sh) eqn:L; [|reflexivity]. apply live_at_true in L. tauto. Qed.

Lemma contrib_nl f sp o : nl o -> contrib f sp o = 0.
Proof.
  destruct o as [sh|]; cbn; [|reflexivity]. intros E.
  destruct (live_at sp sh) eqn:L; [|reflexivity]. apply live_at_true in L. tauto.
Qed.

Lemma lsum_nonneg f sp m : (forall k x, m !! k = Some x -> 0 <= f x) -> 0 <= lsum f sp m.
Proof. intros Hf. apply sum_map_nonneg. intros k x E. destruct (live_at sp x); [eapply Hf, E|lia]. Qed.

(** * the accounting invariant, on the two tables *)
Definition UsedM (pl : gmap string Pledge) (sm : gmap Z Shard) : Prop :=
  forall sp p, pl !! sp = Some p -> pl_used p = lsum sh_size sp sm /\ pl_shpledged p = lsum sh_pledge sp sm.
Definition CapM (pl : gmap string Pledge) : Prop :=
  forall sp p, pl !! sp = Some p -> 0 <= pl_used p <= pl_total p.
Definition LiveM (pl : gmap string Pledge) (sm : gmap Z Shard) : Prop :=
  forall id sh, sm !! id = Some sh -> sh_status sh = ShardCompleted -> is_Some (pl !! sh_sp sh).
Definition AccM pl sm : Prop := UsedM pl sm /\ CapM pl /\ LiveM pl sm.

Definition Live_pledged (s : State) : Prop :=
  forall id sh, shards s !! id = Some sh -> sh_status sh = ShardCompleted -> is_Some (pledges s !! sh_sp sh).

Definition Acc (s : State) : Prop := AccM (pledges s) (shards s).

Lemma Acc_iff s : Acc s <-> Inv_used s /\ Inv_capacity s /\ Live_pledged s.
Proof. reflexivity. Qed.

(* the fields of a pledge the invariant reads *)
Definition pv (p : Pledge) : Z * Z * Z := (pl_used p, pl_shpledged p, pl_total p).
Definition PV (pl pl' : gmap string Pledge) : Prop := forall k, pv <$> pl' !! k = pv <$> pl !! k.

Lemma PV_refl pl : PV pl pl. Proof. intros k. reflexivity. Qed.
Lemma PV_trans a b c : PV a b -> PV b c -> PV a c.
Proof. intros H1 H2 k. rewrite H2. apply H1. Qed.
Lemma PV_sym a b : PV a b -> PV b a.
Proof. intros H k. symmetry. apply H. Qed.

Lemma PV_lookup pl pl' k p' :
  PV pl pl' -> pl' !! k = Some p' ->
  exists p, pl !! k = Some p /\ pl_used p = pl_used p' /\ pl_shpledged p = pl_shpledged p' /\ pl_total p = pl_total p'.
Proof.
  intros H E. specialize (H k). rewrite E in H. destruct (pl !! k) as [p|]; [|discriminate H].
  injection H as H1 H2 H3. exists p. auto.
Qed.

Lemma PV_insert pl pl' k p' : PV pl pl' -> pv <$> pl !! k = Some (pv p') -> PV pl (<[k:=p']> pl').
Proof.
  intros H E j. destruct (decide (j = k)) as [->|Hne].
  - rewrite lookup_insert, E. reflexivity.
  - rewrite lookup_insert_ne by congruence. apply H.
Qed.

Lemma PV_insert_both pl pl' k p : PV pl pl' -> PV (<[k:=p]> pl) (<[k:=p]> pl').
Proof.
  intros H j. destruct (decide (j = k)) as [->|Hne].
  - rewrite !lookup_insert. reflexivity.
  - rewrite !lookup_insert_ne by congruence. apply H.
Qed.

Lemma AccM_pv pl pl' sm : PV pl pl' -> AccM pl sm -> AccM pl' sm.
Proof.
  intros H (HU & HC & HL). split; [|split].
  - intros sp p' E. destruct (PV_lookup _ _ _ _ H E) as (p & Ep & <- & <- & _). eauto.
  - intros sp p' E. destruct (PV_lookup _ _ _ _ H E) as (p & Ep & <- & _ & <-). eauto.
  - intros id sh E Hs. destruct (HL id sh E Hs) as [p Ep]. specialize (H (sh_sp sh)). rewrite Ep in H.
    destruct (pl' !! sh_sp sh); [eexists; reflexivity|discriminate H].
Qed.

Lemma AccM_shards pl sm sm' :
  (forall sp, lsum sh_size sp sm' = lsum sh_size sp sm /\ lsum sh_pledge sp sm' = lsum sh_pledge sp sm) ->
  (forall id sh, sm' !! id = Some sh -> sh_status sh = ShardCompleted ->
                 exists id0 sh0, sm !! id0 = Some sh0 /\ sh_status sh0 = ShardCompleted /\ sh_sp sh0 = sh_sp sh) ->
  AccM pl sm -> AccM pl sm'.
Proof.
  intros Hs Hl (HU & HC & HL). split; [|split; [exact HC|]].
  - intros sp p E. destruct (Hs sp) as [-> ->]. eauto.
  - intros id sh E Hst. destruct (Hl id sh E Hst) as (id0 & sh0 & E0 & S0 & <-). eauto.
Qed.

Lemma AccM_insert_nl pl sm k v : nl (sm !! k) -> sh_status v <> ShardCompleted -> AccM pl sm -> AccM pl (<[k:=v]> sm).
Proof.
  intros Hk Hv. apply AccM_shards.
  - intros sp. rewrite !lsum_insert, !(contrib_nl _ _ _ Hk), !(contrib_nl _ _ (Some v) Hv). lia.
  - intros id sh E Hst. apply lookup_insert_Some in E. destruct E as [[<- <-]|[Hne E]]; [contradiction|]. eauto.
Qed.

Lemma AccM_insert_same pl sm k sh v :
  sm !! k = Some sh -> sh_status v = sh_status sh -> sh_sp v = sh_sp sh -> sh_size v = sh_size sh -> sh_pledge v = sh_pledge sh ->
  AccM pl sm -> AccM pl (<[k:=v]> sm).
Proof.
  intros Ek E1 E2 E3 E4. apply AccM_shards.
  - intros sp. rewrite !lsum_insert, Ek. cbn. unfold live_at. rewrite E1, E2, E3, E4. lia.
  - intros id x E Hst. apply lookup_insert_Some in E. destruct E as [[<- <-]|[Hne E]]; [|eauto].
    exists k, sh. split; [exact Ek|]. split; congruence.
Qed.

Lemma AccM_delete_nl pl sm k : nl (sm !! k) -> AccM pl sm -> AccM pl (delete k sm).
Proof.
  intros Hk. apply AccM_shards.
  - intros sp. rewrite !lsum_delete, !(contrib_nl _ _ _ Hk). lia.
  - intros id sh E Hst. apply lookup_delete_Some in E. destruct E as [_ E]. eauto.
Qed.

Lemma AccM_fold_delete_nl pl ids : forall sm,
  (forall k, In k ids -> nl (sm !! k)) -> AccM pl sm -> AccM pl (fold_left (fun m id => delete id m) ids sm).
Proof.
  induction ids as [|k ids IH]; intros sm Hk H; cbn; [exact H|].
  apply IH.
  - intros j Hj. destruct (decide (j = k)) as [->|Hne]; [rewrite lookup_delete; exact I|].
    rewrite lookup_delete_ne by congruence. apply Hk. right; exact Hj.
  - apply AccM_delete_nl; [apply Hk; left; reflexivity|exact H].
Qed.

Lemma AccM_update pl sm c p' sm' :
  (forall sp f, sp <> c -> lsum f sp sm' = lsum f sp sm) ->
  (forall id x, sm' !! id = Some x -> sh_sp x = c \/ sm !! id = Some x) ->
  pl_used p' = lsum sh_size c sm' -> pl_shpledged p' = lsum sh_pledge c sm' -> 0 <= pl_used p' <= pl_total p' ->
  AccM pl sm -> AccM (<[c:=p']> pl) sm'.
Proof.
  intros Hs Hl U1 U2 U3 (HU & HC & HL). split; [|split].
  - intros sp q E. destruct (decide (sp = c)) as [->|Hne].
    + rewrite lookup_insert in E. injection E as <-. auto.
    + rewrite lookup_insert_ne in E by congruence. rewrite !Hs by exact Hne. eauto.
  - intros sp q E. destruct (decide (sp = c)) as [->|Hne].
    + rewrite lookup_insert in E. injection E as <-. exact U3.
    + rewrite lookup_insert_ne in E by congruence. eauto.
  - intros id x E Hx. apply lookup_insert_is_Some'. destruct (Hl id x E) as [->|E0]; [left; reflexivity|right; eauto].
Qed.

(* the renewal top-up: collateral of a completed shard and of its provider grow together *)
Lemma AccM_topup pl sm k sh v p p' x :
  sm !! k = Some sh -> sh_status sh = ShardCompleted -> sh_status v = ShardCompleted -> sh_sp v = sh_sp sh ->
  sh_size v = sh_size sh -> sh_pledge v = sh_pledge sh + x ->
  pl !! sh_sp sh = Some p -> pl_used p' = pl_used p -> pl_shpledged p' = pl_shpledged p + x -> pl_total p' = pl_total p ->
  AccM pl sm -> AccM (<[sh_sp sh := p']> pl) (<[k:=v]> sm).
Proof.
  intros Ek Hst Hv E2 E3 E4 Ep U1 U2 U3 HA. pose proof HA as (HU & HC & _).
  destruct (HU _ _ Ep). specialize (HC _ _ Ep).
  apply (AccM_update _ sm); [| | | | |exact HA]; rewrite ?lsum_insert, ?Ek, ?contrib_live by auto; try lia.
  - intros sp f Hne. rewrite lsum_insert, Ek, !contrib_other by congruence. lia.
  - intros id y E. apply lookup_insert_Some in E. destruct E as [[_ <-]|[_ E]]; auto.
Qed.

(* from here on contributions are evaluated by [contrib_live], [contrib_other], [contrib_nl] only *)
Local Arguments contrib : simpl never.

(** * frames *)
Definition Fv (s s' : State) : Prop :=
  PV (pledges s) (pledges s') /\ shards s' = shards s /\ shard_count s' = shard_count s.

Global Instance Fv_preorder : PreOrder Fv.
Proof.
  split.
  - intros s. split; [apply PV_refl|auto].
  - intros a b c (A1 & A2 & A3) (B1 & B2 & B3). split; [eapply PV_trans; eassumption|]. split; congruence.
Qed.

Lemma Fv_same s s' : pledges s' = pledges s -> shards s' = shards s -> shard_count s' = shard_count s -> Fv s s'.
Proof. intros E1 E2 E3. split; [rewrite E1; apply PV_refl|auto]. Qed.

Lemma Acc_Fv s s' : Fv s s' -> Acc s -> Acc s'.
Proof. intros (H1 & H2 & _) H. unfold Acc. rewrite H2. eapply AccM_pv; eassumption. Qed.

Definition FvO (s s' : State) : Prop := Fv s s' /\ eqon orders s s'.

Global Instance FvO_preorder : PreOrder FvO.
Proof.
  split; [split; reflexivity|].
  intros a b c [A1 A2] [B1 B2]. split; [etransitivity; eassumption|unfold eqon in *; congruence].
Qed.

Lemma FvO_Fv s s' : FvO s s' -> Fv s s'.
Proof. intros H. apply H. Qed.

Lemma FvO_same s s' :
  pledges s' = pledges s -> shards s' = shards s -> shard_count s' = shard_count s -> orders s' = orders s -> FvO s s'.
Proof. intros E1 E2 E3 E4. split; [apply Fv_same; assumption|exact E4]. Qed.

(* side conditions of [modify]: the written field is none of those the frame speaks of *)
Ltac fv_same := first [ apply Fv_same; reflexivity | apply FvO_same; reflexivity ].
Ltac fv_side := first [ fv_same | repeat case_match; fv_same ].
Global Hint Extern 1 (Fv _ _) => fv_side : mokside.
Global Hint Extern 1 (FvO _ _) => fv_side : mokside.

(* the leaves below are stated for any preorder, and [auto] does not look for the instance by itself *)
Global Hint Extern 0 (PreOrder _) => exact _ : mok.
Global Hint Resolve FvO_Fv : mok.

(* what Renew calls around its loop leaves the order table alone as well *)
Section Orders.
  Context (R : State -> State -> Prop) `{!PreOrder R} (HO : forall s s', FvO s s' -> R s s') (cx : Ctx).
  Local Notation h := true.
  Hint Extern 1 (R _ _) => apply HO; fv_side : mokside.

  Lemma send_strict_o f t a : mok R h (send_strict f t a).
  Proof. apply mok_send_strict; try exact _. intros s _ _. apply HO. fv_side. Qed.
  Lemma extend_meta_duration_o d e : mok R h (extend_meta_duration d e).
  Proof. unfold extend_meta_duration, remove_data_expire, set_data_expire. mok_tac. Qed.
  (* update_meta on an order that is not a force-push *)
  Lemma update_meta_o oid o : o_op o <> 2 -> mok R h (update_meta cx oid o).
  Proof.
    intros Hop. unfold update_meta. mok_tac.
    all: match goal with H : (o_op _ =? 2) = true |- _ => apply Z.eqb_eq in H; contradiction end.
  Qed.
End Orders.
Global Hint Resolve send_strict_o extend_meta_duration_o update_meta_o : mok.

(* the state AppendShard leaves *)
Definition app_state (s : State) (sh : Shard) : State :=
  s <| shards ::= <[shard_count s := sh]> |> <| shard_count := u64 (shard_count s + 1) |>.

Section Light.
  Context (R : State -> State -> Prop) `{!PreOrder R} (HFv : forall s s', Fv s s' -> R s s').
  Context (HApp : forall s sh, sh_status sh <> ShardCompleted -> R s (app_state s sh)).
  Context (cx : Ctx).
  Local Notation h := true.
  Hint Extern 1 (R _ _) => apply HFv; fv_side : mokside.

  Lemma send_lenient_fv f t a : mok R h (send_lenient f t a).
  Proof. apply mok_send_lenient; try exact _. intros s _ _. apply HFv. fv_side. Qed.
  Hint Resolve send_lenient_fv : mok.
  Lemma coin_sub_fv a b : mok R h (coin_sub a b).
  Proof. unfold coin_sub. mok_tac. Qed.
  Hint Resolve coin_sub_fv : mok.
  Lemma end_block_node_fv : mok R h (end_block_node cx).
  Proof. unfold end_block_node, do_penalty. mok_tac. Qed.
  Lemma node_create_fv c : mok R h (node_create cx c).
  Proof. unfold node_create. mok_tac. Qed.
  Lemma node_reset_fv m : mok R h (node_reset cx m).
  Proof. unfold node_reset. mok_tac. Qed.
  Lemma repay_debt_fv sp rw : mok R h (repay_debt sp rw).
  Proof. unfold repay_debt. mok_tac. Qed.
  Hint Resolve repay_debt_fv : mok.
  Lemma market_claim_fv sp : mok R h (market_claim cx sp).
  Proof. unfold market_claim. mok_tac. Qed.
  Hint Resolve market_claim_fv : mok.
  Lemma increase_reputation_fv n v : mok R h (increase_reputation n v).
  Proof. unfold increase_reputation. mok_tac. Qed.
  Hint Resolve increase_reputation_fv : mok.
  Lemma random_sp_m_fv count ignore size : mok R h (random_sp_m cx count ignore size).
  (* [mok_random_sp_m] does not use [PreOrder R]; the statement keeps it, like its neighbours *)
  Proof using PreOrder0 HFv. apply mok_random_sp_m; [right; reflexivity|intros s r; apply HFv; fv_side]. Qed.
  Hint Resolve random_sp_m_fv : mok.

  Lemma send_to_did_balances_fv md d amt : mok R h (send_to_did_balances md d amt).
  Proof. apply mok_send_to_did_balances, _. Qed.
  Hint Resolve send_to_did_balances_fv : mok.
  Lemma worker_release_fv o sh : mok R h (worker_release cx o sh).
  Proof. unfold worker_release. mok_tac. Qed.
  Hint Resolve worker_release_fv : mok.
  Lemma worker_append_fv o sh : mok R h (worker_append cx o sh).
  Proof. unfold worker_append. mok_tac. Qed.
  Hint Resolve worker_append_fv : mok.
  Lemma market_deposit_fv o : mok R h (market_deposit o).
  Proof. unfold market_deposit. mok_tac. Qed.
  Hint Resolve market_deposit_fv : mok.
  Lemma market_withdraw_fv oid o : mok R h (market_withdraw cx oid o).
  Proof. unfold market_withdraw. mok_tac. mok_loop; mok_tac. Qed.
  Hint Resolve market_withdraw_fv : mok.
  Lemma append_order_fv o : mok R h (append_order o).
  Proof. unfold append_order. mok_tac. Qed.
  Hint Resolve append_order_fv : mok.
  Lemma renew_order_fv o : mok R h (renew_order o).
  Proof. unfold renew_order. mok_tac. Qed.
  Hint Resolve renew_order_fv : mok.
  Lemma order_terminate_fv oid refund : mok R h (order_terminate oid refund).
  Proof. unfold order_terminate. mok_tac. Qed.
  Hint Resolve order_terminate_fv : mok.
  Lemma refund_order_fv oid : mok R h (refund_order oid).
  Proof. unfold refund_order. mok_tac. Qed.
  Hint Resolve refund_order_fv : mok.
  Lemma set_data_expire_fv d a : mok R h (set_data_expire d a).
  Proof. unfold set_data_expire. mok_tac. Qed.
  Hint Resolve set_data_expire_fv : mok.
  Lemma remove_data_expire_fv d a : mok R h (remove_data_expire d a).
  Proof. unfold remove_data_expire. mok_tac. Qed.
  Hint Resolve remove_data_expire_fv : mok.
  Lemma new_meta_fv o d m : mok R h (new_meta cx o d m).
  Proof. unfold new_meta. mok_tac. Qed.
  Hint Resolve new_meta_fv : mok.
  Lemma reset_meta_duration_fv d m : mok R h (reset_meta_duration cx d m).
  Proof. unfold reset_meta_duration. mok_tac. Qed.
  Hint Resolve reset_meta_duration_fv : mok.
  Lemma delete_meta_fv d : mok R h (delete_meta d).
  Proof. unfold delete_meta. mok_tac. Qed.
  Hint Resolve delete_meta_fv : mok.
  Lemma update_meta_status_commit_fv oid o : mok R h (update_meta_status_commit cx oid o).
  Proof. unfold update_meta_status_commit. mok_tac. Qed.
  Hint Resolve update_meta_status_commit_fv : mok.
  Lemma rollback_meta_fv d : mok R h (rollback_meta cx d).
  Proof. unfold rollback_meta. mok_tac. Qed.
  Hint Resolve rollback_meta_fv : mok.
  Lemma cancel_order_fv oid : mok R h (cancel_order cx oid).
  Proof. unfold cancel_order. mok_tac. Qed.
  Hint Resolve cancel_order_fv : mok.
  Lemma update_permission_fv ow d ro rw : mok R h (update_permission ow d ro rw).
  Proof. unfold update_permission. mok_tac. Qed.
  Hint Resolve update_permission_fv : mok.
  Lemma end_block_model_fv : mok R h (end_block_model cx).
  Proof. unfold end_block_model. mok_tac. Qed.
  Lemma set_timeout_block_fv oid a : mok R h (set_timeout_block oid a).
  Proof. unfold set_timeout_block. mok_tac. Qed.
  Hint Resolve set_timeout_block_fv : mok.
  Lemma set_expired_shard_block_fv sid a : mok R h (set_expired_shard_block sid a).
  Proof. unfold set_expired_shard_block. mok_tac. Qed.
  Hint Resolve set_expired_shard_block_fv : mok.
  Lemma get_sps_fv o d : mok R h (get_sps cx o d).
  Proof. unfold get_sps. mok_tac. Qed.
  Hint Resolve get_sps_fv : mok.
  Lemma sao_update_permission_fv c p ow d ro rw sg v : mok R h (sao_update_permission cx c p ow d ro rw sg v).
  Proof. unfold sao_update_permission. mok_tac. Qed.

  Lemma append_shard_fv sh : sh_status sh <> ShardCompleted -> mok R h (append_shard sh).
  Proof. intros Hs s. unfold append_shard, bind, get, modify, ret. apply (HApp s sh Hs). Qed.
  Lemma new_shard_task_fv oid o p : mok R h (new_shard_task oid o p).
  Proof. unfold new_shard_task. apply append_shard_fv. cbn. discriminate. Qed.
  Hint Resolve new_shard_task_fv : mok.
  Lemma gen_shards_fv oid sps : forall o, mok R h (gen_shards oid o sps).
  Proof. induction sps as [|sp sps IH]; intros o; cbn [gen_shards]; mok_tac. Qed.
  Hint Resolve gen_shards_fv : mok.
  Lemma generate_shards_fv oid o sps : mok R h (generate_shards oid o sps).
  Proof. unfold generate_shards. mok_tac. Qed.
  Hint Resolve generate_shards_fv : mok.
  Lemma new_order_fv o sps : mok R h (new_order cx o sps).
  Proof. unfold new_order. mok_tac. Qed.
  Hint Resolve new_order_fv : mok.
  Lemma sao_store_fv m : mok R h (sao_store cx m).
  Proof. unfold sao_store. mok_tac. Qed.
  Lemma sao_ready_fv c p oid : mok R h (sao_ready cx c p oid).
  Proof. unfold sao_ready. mok_tac. Qed.
  Lemma migrate_one_fv p d : mok R h (migrate_one cx p d).
  Proof.
    unfold migrate_one. mok_tac. mok_loop; mok_tac.
    apply append_shard_fv. cbn. discriminate.
  Qed.
  Hint Resolve migrate_one_fv : mok.
  Lemma sao_migrate_fv c p d : mok R h (sao_migrate cx c p d).
  Proof. unfold sao_migrate. mok_tac. Qed.
End Light.

Global Hint Resolve send_lenient_fv coin_sub_fv repay_debt_fv market_claim_fv
  increase_reputation_fv worker_release_fv worker_append_fv market_deposit_fv set_expired_shard_block_fv
  cancel_order_fv end_block_node_fv end_block_model_fv
  node_create_fv node_reset_fv sao_update_permission_fv : mok.

(* [g] picks [pledges], [shards] and [shard_count] out of the kept tuple by their places in it ([nodid], [nofault],
   [nostake], [nomint] of Frame.v); [injection] on an equation of such tuples is slow *)
Lemma mok_eqon_Fv {T A} (f : State -> T) (g : T -> gmap string Pledge * gmap Z Shard * Z) hh (m : M A) :
  (forall s, g (f s) = (pledges s, shards s, shard_count s)) -> mok (eqon f) hh m -> mok Fv true m.
Proof.
  intros Hg. apply mok_weaken; [|auto]. intros s s' E. apply (f_equal g) in E. rewrite !Hg in E.
  injection E as E1 E2 E3. apply Fv_same; assumption.
Qed.

Lemma lift_did_Fv cx o : mok Fv true (lift_did cx o).
Proof.
  apply (mok_eqon_Fv nodid (fun '(_, p, _, _, _, _, _, _, _, _, _, sh, c, _, _, _, _, _, _, _, _, _, _, _) => (p, sh, c)) true);
    [reflexivity|apply lift_did_ok].
Qed.
Lemma nofault_Fv {A} (m : M A) : mok (eqon nofault) true m -> mok Fv true m.
Proof.
  apply (mok_eqon_Fv nofault (fun '(_, _, p, _, _, _, _, _, _, sh, c, _, _, _, _, _, _, _, _, _, _, _) => (p, sh, c))).
  reflexivity.
Qed.
Lemma sao_report_faults_Fv cx c p fl : mok Fv true (sao_report_faults cx c p fl).
Proof. apply nofault_Fv, sao_report_faults_ok. Qed.
Lemma sao_recover_faults_Fv cx c p fl : mok Fv true (sao_recover_faults cx c p fl).
Proof. apply nofault_Fv, sao_recover_faults_ok. Qed.
Lemma staking_tx_Fv evs : mok Fv true (staking_tx evs).
Proof.
  apply (mok_eqon_Fv nostake (fun '(_, p, _, _, _, _, _, _, _, _, _, sh, c, _, _, _, _, _, _, _) => (p, sh, c)) true);
    [reflexivity|apply staking_tx_ok].
Qed.
Lemma begin_block_Fv cx : mok Fv true (begin_block cx).
Proof.
  apply (mok_eqon_Fv nomint (fun '(_, _, p, _, _, _, _, _, _, _, _, sh, c, _, _, _, _, _, _, _, _, _, _) => (p, sh, c)) true);
    [reflexivity|apply begin_block_ok].
Qed.
Global Hint Resolve lift_did_Fv sao_report_faults_Fv sao_recover_faults_Fv staking_tx_Fv : mok.

(** * weakest preconditions *)
Implicit Types E : State -> Prop.

(* For computations whose effect depends on the state they start from, of which a relation over all states
   ([mok]) says too little. Nothing is asked of a panic or a hang. *)
Definition wp {A} (m : M A) (s : State) (Q : A -> State -> Prop) (E : State -> Prop) : Prop :=
  match m s with Ok a s' => Q a s' | Err _ s' => E s' | Panic _ => True | Hang => True end.

Lemma wp_ret {A} (a : A) s (Q : A -> State -> Prop) E : Q a s -> wp (ret a) s Q E.
Proof. intros H. exact H. Qed.
Lemma wp_fail {A} e s (Q : A -> State -> Prop) E : E s -> wp (fail e) s Q E.
Proof. intros H. exact H. Qed.
Lemma wp_panic {A} e s (Q : A -> State -> Prop) E : wp (panic e) s Q E.
Proof. exact I. Qed.
Lemma wp_bind {A B} (m : M A) (k : A -> M B) s Q E : wp m s (fun a s' => wp (k a) s' Q E) E -> wp (bind m k) s Q E.
Proof. unfold wp, bind. destruct (m s); auto. Qed.
Lemma wp_get {A} (k : State -> M A) s Q E : wp (k s) s Q E -> wp (bind get k) s Q E.
Proof. intros H. exact H. Qed.
Lemma wp_modify g s (Q : unit -> State -> Prop) E : Q tt (g s) -> wp (modify g) s Q E.
Proof. intros H. exact H. Qed.
Lemma wp_try {A} (m : M A) s (Q : option A -> State -> Prop) E : wp m s (fun a s' => Q (Some a) s') (fun s' => Q None s') -> wp (try_ m) s Q E.
Proof. unfold wp, try_. destruct (m s); auto. Qed.
Lemma wp_case {A} (m : M A) s (Q0 Q : A -> State -> Prop) E0 E :
  wp m s Q0 E0 -> (forall a s', m s = Ok a s' -> Q0 a s' -> Q a s') -> (forall e s', m s = Err e s' -> E0 s' -> E s') ->
  wp m s Q E.
Proof. unfold wp. destruct (m s); eauto. Qed.
Lemma wp_mono {A} (m : M A) s (Q Q' : A -> State -> Prop) E E' :
  wp m s Q E -> (forall a s', Q a s' -> Q' a s') -> (forall s', E s' -> E' s') -> wp m s Q' E'.
Proof. intros H HQ HE. eapply wp_case; eauto. Qed.
Lemma wp_forM {A} (l : list A) (f : A -> M unit) (I : State -> Prop) s (Q : unit -> State -> Prop) E :
  I s -> (forall x t, In x l -> I t -> wp (f x) t (fun _ t' => I t') E) -> (forall t, I t -> Q tt t) ->
  wp (forM l f) s Q E.
Proof.
  intros Hs Hf HQ. revert s Hs. induction l as [|x l IH]; intros s Hs; cbn [forM].
  - apply wp_ret, HQ, Hs.
  - apply wp_bind. eapply wp_mono; [apply (Hf x s); [left; reflexivity|exact Hs]| |auto].
    intros u s' Hs'. apply IH; [|exact Hs']. intros y t Hy. apply Hf. right; exact Hy.
Qed.

Lemma mok_wp {A} R (m : M A) s : mok R true m -> wp m s (fun _ s' => R s s') (R s).
Proof. intros H. specialize (H s). unfold wp. destruct (m s); auto. Qed.
Lemma mok_of_wp {A} R (m : M A) : (forall s, wp m s (fun _ s' => R s s') (R s)) -> mok R true m.
Proof. intros H s. specialize (H s). unfold wp in H. destruct (m s); auto. Qed.
Lemma wp_mok {A} R (m : M A) s (Q : A -> State -> Prop) E :
  mok R true m -> (forall a s', R s s' -> Q a s') -> (forall s', R s s' -> E s') -> wp m s Q E.
Proof. intros Hm. apply wp_mono, mok_wp, Hm. Qed.
(* A bound step known only by its frame [R]. The frame is measured from a state [s0] of one's choice, so
   that a sequence of such steps leaves one hypothesis [R s0 _] and no chain of transitivity steps. *)
Lemma wp_bind_mok {A B} R `{!PreOrder R} s0 (m : M A) (k : A -> M B) s Q E :
  R s0 s -> mok R true m -> (forall s', R s0 s' -> E s') ->
  (forall a s', R s0 s' -> wp (k a) s' Q E) -> wp (bind m k) s Q E.
Proof.
  intros F Hm HE Hk. apply wp_bind. eapply wp_mok; [exact Hm| |]; intros; [apply Hk|apply HE]; etransitivity; eassumption.
Qed.

(* the error side of a transaction: its state is rolled back, so nothing is asked of it *)
Definition discarded (_ : State) : Prop := True.

Lemma wp_if_fail {A} (b : bool) e (m : M A) s Q : wp m s Q discarded -> wp (if b then fail e else m) s Q discarded.
Proof. destruct b; [intros _; exact I|auto]. Qed.
Lemma wp_some_fail {A B} (o : option B) e (k : B -> M A) s Q :
  (forall x, o = Some x -> wp (k x) s Q discarded) -> wp (match o with Some x => k x | None => fail e end) s Q discarded.
Proof. destruct o; [auto|intros _; exact I]. Qed.
Lemma wp_if_panic {A} (b : bool) e (m : M A) s Q E : wp m s Q E -> wp (if b then panic e else m) s Q E.
Proof. destruct b; [intros _; exact I|auto]. Qed.

(* domain of the model: shard sizes are unsigned, capacities fit int64 *)
Definition sizes_nonneg (sm : gmap Z Shard) : Prop := forall id sh, sm !! id = Some sh -> 0 <= sh_size sh.
Definition Dom (s : State) : Prop :=
  sizes_nonneg (shards s) /\ (forall sp p, pledges s !! sp = Some p -> pl_total p < two63).

Lemma Dom_Fv s s' : Fv s s' -> Dom s -> Dom s'.
Proof.
  intros (H1 & H2 & _) [D1 D2]. split; [rewrite H2; exact D1|].
  intros sp p' E. destruct (PV_lookup _ _ _ _ H1 E) as (p & Ep & _ & _ & <-). eauto.
Qed.

Definition AccDom (s : State) : Prop := Acc s /\ Dom s.

Lemma AccDom_Fv s s' : Fv s s' -> AccDom s -> AccDom s'.
Proof. intros F [H1 H2]. split; [eapply Acc_Fv; eassumption|eapply Dom_Fv; eassumption]. Qed.

(* [wp_frame s0]: the next bound computation is a frame step; the frame is measured from [s0] *)
Ltac wp_frame_with R s0 tac :=
  eapply (wp_bind_mok R s0);
  [ first [eassumption|reflexivity] | tac
  | first [eassumption|intros; first [exact I|assumption|eapply AccDom_Fv; eassumption|eapply Acc_Fv; eassumption]] | ].
Ltac wp_frame s0 := wp_frame_with Fv s0 mok_tac.

Lemma shard_release_none_Fv sp : mok Fv true (shard_release sp None).
Proof.
  intros s. unfold shard_release, bind, get. destruct (pledges s !! sp) as [p|] eqn:Ep; [|cbn; reflexivity].
  destruct (pool s) as [po|]; [|cbn; reflexivity]. cbn.
  split; [|split; reflexivity]. apply PV_insert; [apply PV_refl|]. rewrite Ep. unfold pv. cbn.
  destruct (settle_keeps (po_accreward po) p) as (_ & -> & -> & ->). reflexivity.
Qed.
Global Hint Resolve shard_release_none_Fv : mok.

Lemma lsum_delete_live f sp sm k sh :
  (forall j x, sm !! j = Some x -> 0 <= f x) -> sm !! k = Some sh -> sh_status sh = ShardCompleted -> sh_sp sh = sp ->
  0 <= lsum f sp (delete k sm) /\ lsum f sp (delete k sm) = lsum f sp sm - f sh.
Proof.
  intros Hf Ek Hst Hsp. split; [|rewrite lsum_delete, Ek, contrib_live by assumption; reflexivity].
  apply lsum_nonneg. intros j x Ex. apply lookup_delete_Some in Ex. eapply Hf, Ex.
Qed.

(* The normal return is described through the deletion of the shard, which every caller performs next.
   The int64 conversions of the counter are the identity because the counter is the sum of the sizes, which
   contains this one. *)
Lemma release_spec s k sh :
  AccDom s -> shards s !! k = Some sh -> sh_status sh = ShardCompleted ->
  wp (shard_release (sh_sp sh) (Some sh)) s
     (fun _ s' => shards s' = shards s /\ forall s'', Fv s' s'' -> AccDom (s'' <| shards ::= delete k |>)) (Fv s).
Proof.
  intros [HA [D1 D2]] Ek Hst. unfold shard_release. apply wp_get.
  destruct (pledges s !! sh_sp sh) as [p|] eqn:Ep; [|apply wp_fail; reflexivity].
  destruct (pool s) as [po|]; [|apply wp_fail; reflexivity].
  cbv zeta. apply wp_bind. wp_frame s. intros rw s1 F1. wp_frame s. intros _ s2 (P2 & S2 & _).
  apply wp_bind. unfold coin_sub. apply wp_if_panic. apply wp_ret, wp_ret, wp_modify.
  split; [exact S2|]. intros s3 (P3 & S3 & _). cbn in P3, S3.
  pose proof HA as (HU & HC & _). destruct (HU _ _ Ep) as [U1 U2]. specialize (HC _ _ Ep). pose proof (D2 _ _ Ep) as Dp.
  pose proof (D1 _ _ Ek) as Hs0. destruct (lsum_delete_live sh_size (sh_sp sh) _ _ _ D1 Ek Hst eq_refl) as [Hge Hsum].
  destruct (settle_keeps (po_accreward po) p) as (_ & S5 & S4 & S1).
  assert (Ei : i64 (pl_used p - i64 (sh_size sh)) = pl_used p - sh_size sh)
    by (rewrite (i64_id (sh_size sh)), i64_id; unfold two63 in *; lia).
  assert (HP : PV (<[sh_sp sh := _]> (pledges s)) (pledges s3)) by (eapply PV_trans; [apply PV_insert_both, P2|exact P3]).
  assert (Hsz : sizes_nonneg (delete k (shards s))).
  { intros j x Ex. apply lookup_delete_Some in Ex. eapply D1, Ex. }
  unfold AccDom, Acc, Dom. cbn. rewrite S3, S2. split; [|split; [exact Hsz|]].
  - eapply AccM_pv; [exact HP|]. apply (AccM_update _ (shards s)); [| | | | |exact HA]; cbn.
    + intros sp f Hne. rewrite lsum_delete, Ek, contrib_other by congruence. lia.
    + intros id x Ex. apply lookup_delete_Some in Ex. right. apply Ex.
    + rewrite S1, Ei. lia.
    + rewrite S5, lsum_delete, Ek, contrib_live by auto. lia.
    + rewrite S1, S4, Ei. lia.
  - intros sp q E. destruct (PV_lookup _ _ _ _ HP E) as (q0 & E0 & _ & _ & <-).
    destruct (decide (sp = sh_sp sh)) as [->|Hne].
    + rewrite lookup_insert in E0. injection E0 as <-. cbn. lia.
    + rewrite lookup_insert_ne in E0 by congruence. eauto.
Qed.

(* the capacity check of ShardPledge keeps the counter within the total, so the int64 conversions are the identity *)
Lemma pledge_spec s k sh price :
  AccDom s -> nl (shards s !! k) -> sh_status sh = ShardCompleted -> 0 <= sh_size sh ->
  wp (shard_pledge k sh price) s (fun _ s' => Acc s') discarded.
Proof.
  intros [HA [_ D2]] Hk Hst Hs0. unfold shard_pledge. apply wp_get.
  apply wp_some_fail; intros p Ep.
  apply wp_some_fail; intros po _.
  cbv zeta. destruct (settle_keeps (po_accreward po) p) as (_ & S2 & S3 & S1). rewrite S1, S3.
  destruct (u64 _ <? sh_size sh) eqn:Echk; [apply wp_fail; exact I|]. apply Z.ltb_ge in Echk.
  apply wp_if_panic.
  wp_frame s. intros _ s1 (P1 & E1 & _). apply wp_bind, wp_modify, wp_ret.
  pose proof HA as (HU & HC & _). destruct (HU _ _ Ep) as [U1 U2]. specialize (HC _ _ Ep). specialize (D2 _ _ Ep).
  rewrite u64_id in Echk by (unfold two64, two63 in *; lia).
  assert (Ei : i64 (pl_used p + i64 (sh_size sh)) = pl_used p + sh_size sh)
    by (rewrite (i64_id (sh_size sh)), i64_id; unfold two63 in *; lia).
  unfold Acc. cbn. rewrite E1. eapply AccM_pv; [apply PV_insert_both, P1|].
  apply (AccM_update _ (shards s)); [| | | | |exact HA];
    rewrite ?lsum_insert, ?(contrib_nl _ _ _ Hk), ?contrib_live by first [exact Hst|reflexivity]; cbn; rewrite ?S1, ?S2, ?S3.
  - intros sp f Hne. rewrite lsum_insert, (contrib_nl _ _ _ Hk), contrib_other by (cbn; congruence). lia.
  - intros id x Ex. apply lookup_insert_Some in Ex. destruct Ex as [[_ <-]|[_ Ex]]; auto.
  - rewrite Ei. lia.
  - lia.
  - rewrite Ei. lia.
Qed.

Lemma Acc_capacity s s' c p' :
  Acc s -> Fv s s' ->
  match pledges s !! c with
  | Some p => pl_used p' = pl_used p /\ pl_shpledged p' = pl_shpledged p /\ pl_used p <= pl_total p'
  | None => pl_used p' = 0 /\ pl_shpledged p' = 0 /\ 0 <= pl_total p'
  end ->
  AccM (<[c:=p']> (pledges s')) (shards s').
Proof.
  intros HA (P & -> & _) Hc. eapply AccM_pv; [apply PV_insert_both, P|]. pose proof HA as (HU & HC & HL).
  destruct (pledges s !! c) as [p|] eqn:Ep; destruct Hc as (E1 & E2 & H3).
  - destruct (HU _ _ Ep). specialize (HC _ _ Ep). apply (AccM_update _ (shards s)); auto; lia.
  - assert (Hz : forall f, lsum f c (shards s) = 0).
    { intros f. apply sum_map_zero. intros k x Ex. destruct (live_at c x) eqn:L; [|reflexivity].
      apply live_at_true in L as [L1 <-]. destruct (HL k x Ex L1) as [q Eq]. congruence. }
    apply (AccM_update _ (shards s)); rewrite ?Hz; auto; lia.
Qed.

Lemma add_vstorage_acc c sz s : Acc s -> wp (add_vstorage c sz) s (fun _ s' => Acc s') discarded.
Proof.
  intros HA. unfold add_vstorage. apply wp_get.
  apply wp_some_fail; intros n _.
  apply wp_some_fail; intros po _.
  cbv zeta. destruct (dec_trunc (dec_ceil (dec_mul_int PRICE (i64 sz))) <? 0) eqn:Eneg; [apply wp_panic|].
  apply Z.ltb_ge in Eneg. rewrite size_of_coins.
  wp_frame s. intros _ s1 F1. wp_frame s. intros _ s2 F2.
  apply wp_modify. apply (Acc_capacity s s2); [exact HA|exact F2|].
  destruct (pledges s !! c) as [p|] eqn:Ep; cbn.
  - destruct (settle_keeps (po_accreward po) (p <| pl_spledged := pl_spledged p + dec_trunc (dec_ceil (dec_mul_int PRICE (i64 sz))) |>))
      as (_ & S2 & S3 & S1). cbn in S1, S2, S3. rewrite S1, S2, S3.
    destruct HA as (_ & HC & _). specialize (HC _ _ Ep). repeat split; lia.
  - unfold settle. cbn. repeat split; lia.
Qed.

Lemma remove_vstorage_acc c sz s : Acc s -> wp (remove_vstorage c sz) s (fun _ s' => Acc s') discarded.
Proof.
  intros HA. unfold remove_vstorage. apply wp_get.
  apply wp_some_fail; intros n _.
  apply wp_some_fail; intros po _.
  apply wp_some_fail; intros p Ep.
  cbv zeta. apply wp_if_fail.
  destruct (pl_total p - pl_used p <? _) eqn:Echk; [apply wp_fail; exact I|]. apply Z.ltb_ge in Echk.
  apply wp_if_panic.
  wp_frame s. intros sp' s0 F0. wp_frame s. intros _ s1 F1. wp_frame s. intros _ s2 F2.
  apply wp_modify. apply (Acc_capacity s s2); [exact HA|exact F2|]. rewrite Ep. cbn.
  destruct (settle_keeps (po_accreward po) (p <| pl_spledged := sp' |>)) as (_ & S2 & S3 & S1).
  cbn in S1, S2, S3. rewrite S1, S2, S3. repeat split; lia.
Qed.

Lemma claim_reward_Fv cx c : mok Fv true (claim_reward cx c).
Proof.
  apply mok_of_wp. intros s. unfold claim_reward. apply wp_get.
  destruct (pledges s !! c) as [p0|]; [|apply wp_fail; reflexivity].
  wp_frame s. intros _ s1 F1. apply wp_get.
  destruct (pledges s1 !! c) as [p|] eqn:Ep; [|apply wp_panic].
  destruct (dec_split (pl_reward p)) as [claim remain]. apply wp_if_panic.
  wp_frame s. intros wr s2 F2. wp_frame s. intros rw s3 F3. wp_frame s. intros _ s4 F4. wp_frame s. intros _ s5 (P5 & S5).
  apply wp_bind, wp_modify, wp_ret.
  split; [|exact S5]. apply PV_insert; [exact P5|]. rewrite <- (proj1 F1), Ep. reflexivity.
Qed.
Global Hint Resolve claim_reward_Fv : mok.

Lemma AccDom_delete_nl t k : AccDom t -> nl (shards t !! k) -> AccDom (t <| shards ::= delete k |>).
Proof.
  intros [HA [D1 D2]] Hk. split; [apply AccM_delete_nl; assumption|]. split; [|exact D2].
  intros j x Ex. cbn in Ex. apply lookup_delete_Some in Ex. destruct Ex as [_ Ex]. eapply D1, Ex.
Qed.

Lemma sao_cancel_acc cx c p oid s : AccDom s -> wp (sao_cancel cx c p oid) s (fun _ s' => Acc s') discarded.
Proof.
  intros HI. unfold sao_cancel. apply wp_get.
  apply wp_some_fail; intros o _.
  cbv zeta. apply wp_if_fail.
  apply wp_if_fail.
  apply wp_if_fail.
  apply wp_bind. apply (wp_forM _ _ AccDom); [exact HI| |].
  - intros x t _ Ht. apply wp_get. apply wp_some_fail; intros sh Ex.
    apply wp_bind. destruct (sh_status sh =? ShardCompleted) eqn:Est.
    + apply Z.eqb_eq in Est. eapply wp_mono; [apply (release_spec t x sh); assumption| |intros; exact I].
      intros _ t' [_ H]. apply wp_modify, H. reflexivity.
    + apply wp_ret, wp_modify, AccDom_delete_nl; [exact Ht|]. rewrite Ex. apply Z.eqb_neq, Est.
  - intros t [HA _]. eapply (wp_mok Fv); [mok_tac| |intros; exact I]. intros _ s' F. eapply Acc_Fv; eassumption.
Qed.

(* the first half of [Inv_order_shards] *)
Definition NoDupShards (s : State) : Prop := forall oid o, orders s !! oid = Some o -> NoDup (o_shards o).

Ltac wp_frameO s0 := wp_frame_with FvO s0 mok_tac.

Lemma mapM_fst {B} (g : Z -> option B) (l : list Z) (r : list (Z * B)) :
  mapM (fun id => match g id with Some b => Some (id, b) | None => None end) l = Some r -> map fst r = l.
Proof.
  revert r. induction l as [|x l IH]; intros r E; cbn in E.
  - injection E as <-. reflexivity.
  - destruct (g x) as [b|]; [|discriminate E].
    destruct (mapM _ l) as [ys|] eqn:Ey; [|discriminate E]. injection E as <-. cbn. f_equal. apply IH. reflexivity.
Qed.

Definition stored (s : State) (x : Z * Shard) : Prop :=
  shards s !! x.1 = Some x.2 /\ (sh_status x.2 = ShardCompleted \/ sh_status x.2 = ShardMigrating).

Lemma renew_shs s l shs :
  mapM (fun id => match shards s !! id with
                  | Some sh => if (sh_status sh =? ShardCompleted) || (sh_status sh =? ShardMigrating) then Some (id, sh) else None
                  | None => None end) l = Some shs ->
  map fst shs = l /\ Forall (stored s) shs.
Proof.
  intros E. apply mapM_Forall2 in E. induction E as [|x y l r Hxy _ [IH1 IH2]]; [split; [reflexivity|constructor]|].
  destruct (shards s !! x) as [sh|] eqn:Ex; [|discriminate Hxy].
  destruct (_ || _) eqn:Eb; [|discriminate Hxy]. injection Hxy as <-. cbn. split; [f_equal; exact IH1|].
  constructor; [|exact IH2]. split; [exact Ex|]. cbn.
  apply orb_true_iff in Eb. destruct Eb as [Eb|Eb]; apply Z.eqb_eq in Eb; auto.
Qed.

Lemma stored_frame s s' id l :
  (forall j, j <> id -> shards s' !! j = shards s !! j) -> id ∉ map fst l -> Forall (stored s) l -> Forall (stored s') l.
Proof.
  intros Hs Hid Hl. apply Forall_forall. intros x Hx. destruct (proj1 (Forall_forall _ _) Hl x Hx) as [H1 H2].
  split; [|exact H2]. rewrite Hs; [exact H1|]. intros <-. apply Hid, elem_of_list_fmap. exists x. auto.
Qed.

Lemma renew_order_frame no t :
  wp (renew_order no) t (fun _ t1 => Fv t t1 /\ exists k, orders t1 = <[k:=no]> (orders t)) (FvO t).
Proof.
  unfold renew_order. apply wp_get. destruct (pay_addr t (o_owner no)); [|apply wp_fail; reflexivity].
  wp_frameO t. intros _ t0 [F0 O0]. unfold append_order. apply wp_get, wp_bind, wp_modify, wp_ret. split.
  - etransitivity; [exact F0|]. apply Fv_same; reflexivity.
  - eexists. cbn. rewrite O0. reflexivity.
Qed.

Definition AccNoDup (s : State) : Prop := Acc s /\ NoDupShards s.

Lemma AccNoDup_FvO s s' : FvO s s' -> AccNoDup s -> AccNoDup s'.
Proof. intros [F O] [HA HO]. split; [eapply Acc_Fv; eassumption|]. unfold NoDupShards. rewrite O. exact HO. Qed.

(* NoDup of the order's shard list is what makes the shards read at the start still the stored ones when
   the loop reaches them *)
Lemma renew_one_acc cx m sd d t : AccNoDup t -> wp (renew_one cx m sd d) t (fun _ t' => AccNoDup t') discarded.
Proof.
  intros HI. pose proof HI as [HA HO]. unfold renew_one. apply wp_get.
  destruct (metas t !! d) as [meta|]; [|apply wp_ret; exact HI].
  destruct (negb _); [apply wp_ret; exact HI|].
  destruct (negb _); [apply wp_ret; exact HI|].
  destruct (orders t !! m_order meta) as [o|] eqn:Eo; [|apply wp_ret; exact HI].
  destruct (mapM _ (o_shards o)) as [shs|] eqn:Em; [|apply wp_ret; exact HI].
  destruct (negb _); [apply wp_ret; exact HI|].
  destruct (_ <? cx_height cx); [apply wp_ret; exact HI|].
  cbv zeta. apply wp_if_panic.
  apply renew_shs in Em as [Hfst Hshs].
  assert (Hnd : NoDup (map fst shs)) by (rewrite Hfst; eapply HO, Eo).
  match goal with |- context [renew_order ?x] => set (no := x) end.
  assert (Hop : o_op no <> 2) by (cbn; lia).
  apply wp_bind, wp_try. eapply wp_mono; [apply renew_order_frame| |intros t1 F1; apply wp_ret; eapply AccNoDup_FvO; eassumption].
  intros nid t1 [F1 [k O1]].
  assert (HI1 : AccNoDup t1).
  { split; [eapply Acc_Fv; eassumption|]. intros oid o' E'. rewrite O1 in E'.
    apply lookup_insert_Some in E'. destruct E' as [[_ <-]|[_ E']]; [cbn|]; eapply HO; eassumption. }
  destruct F1 as (_ & S1 & _). unfold stored in Hshs. rewrite <- S1 in Hshs. fold (stored t1) in Hshs.
  match goal with |- wp (bind (?F shs 0) _) _ _ _ =>
    assert (Hloop : forall ll acc t2, Acc t2 -> NoDup (map fst ll) -> Forall (stored t2) ll ->
              wp (F ll acc) t2 (fun _ t' => Acc t' /\ orders t' = orders t2) discarded) end.
  { intros ll. induction ll as [|[id sh] ll IH]; intros acc t2 HA2 Hnd2 Hl2; fix_unfold; [apply wp_ret; auto|].
    apply NoDup_cons in Hnd2 as [Hnotin Hnd2]. apply Forall_cons in Hl2 as [[Eid Hst] Hl2]. cbn [fst snd] in Eid, Hst, Hnotin.
    apply wp_bind. destruct (sh_status sh =? ShardMigrating) eqn:Emig; [apply wp_ret, IH; assumption|].
    assert (Hc : sh_status sh = ShardCompleted) by (apply Z.eqb_neq in Emig; tauto).
    cbv zeta. apply wp_if_panic. apply wp_bind.
    (* both branches leave a state in which the shard may be rewritten with the returned collateral *)
    eapply (wp_mono _ _ (fun sh1 t3 => shards t3 = shards t2 /\ orders t3 = orders t2 /\
               forall v, sh_status v = sh_status sh1 -> sh_sp v = sh_sp sh1 -> sh_size v = sh_size sh1 ->
                         sh_pledge v = sh_pledge sh1 -> AccM (pledges t3) (<[id:=v]> (shards t3))) _ discarded); [| |auto].
    - destruct (sh_pledge sh <? _) eqn:Elt.
      + apply wp_get. wp_frameO t2. intros _ t3 [F3 O3]. pose proof F3 as (_ & S3 & _).
        apply wp_get, wp_bind. destruct (pledges t3 !! sh_sp sh) as [p|] eqn:Ep; [|apply wp_panic].
        apply wp_modify, wp_ret. split; [exact S3|]. split; [exact O3|]. intros v V1 V2 V3 V4. cbn in *.
        eapply (AccM_topup _ _ id sh v p _ (sh_pledge v - sh_pledge sh)); try eassumption; try reflexivity; try congruence.
        * lia.
        * rewrite V4. cbn. lia.
        * eapply Acc_Fv; eassumption.
      + apply wp_ret. split; [reflexivity|]. split; [reflexivity|]. intros v V1 V2 V3 V4.
        eapply AccM_insert_same; eassumption.
    - intros sh1 t3 (S3 & O3 & H3). apply wp_bind, wp_modify, wp_ret.
      eapply wp_mono; [apply IH| |auto].
      + apply H3; reflexivity.
      + exact Hnd2.
      + eapply stored_frame; [|exact Hnotin|exact Hl2]. intros j Hj. cbn. rewrite lookup_insert_ne, S3 by congruence. reflexivity.
      + cbv beta. intros a t' [H1 H2]. split; [exact H1|]. rewrite H2. exact O3. }
  apply wp_bind. eapply wp_mono; [apply Hloop; [apply HI1|exact Hnd|exact Hshs]| |auto].
  cbv beta. intros new_end t2 [HA2 O2].
  assert (HI2 : AccNoDup t2) by (split; [exact HA2|unfold NoDupShards; rewrite O2; apply HI1]).
  wp_frameO t2. intros _ t3 F3. wp_frameO t2. intros _ t4 F4. apply wp_ret. eapply AccNoDup_FvO; eassumption.
Qed.

Lemma sao_renew_acc cx m s : Acc s -> NoDupShards s -> wp (sao_renew cx m) s (fun _ s' => Acc s') discarded.
Proof.
  intros HA HO. unfold sao_renew. apply wp_get.
  apply wp_some_fail; intros sd _.
  apply wp_if_fail.
  apply wp_if_fail.
  apply wp_if_fail.
  destruct (pool s); [|apply wp_fail; exact I].
  apply (wp_forM _ _ AccNoDup); [split; assumption| |intros t [H _]; exact H].
  intros x t _ H. apply renew_one_acc, H.
Qed.

(* hypotheses on the completion of a shard: no force-push bookkeeping starts here, and a migration has a completed source *)
Definition complete_ok (s : State) (provider : string) (oid : Z) : Prop :=
  forall o, orders s !! oid = Some o ->
    (o_op o = 2 -> o_status o = OrderCompleted) /\
    (forall sid sh old_id old, shard_by_sp s o provider = Some (sid, sh) -> sh_status sh = ShardMigrating ->
       shard_by_sp s o (sh_from sh) = Some (old_id, old) -> sh_status old = ShardCompleted).

Lemma complete_migration_acc cx oid o sid sh s :
  AccDom s -> shards s !! sid = Some sh -> sh_status sh <> ShardCompleted ->
  (forall old_id old, shard_by_sp s o (sh_from sh) = Some (old_id, old) -> sh_status old = ShardCompleted) ->
  wp (complete_migration cx oid o sid sh) s
     (fun r t => AccDom t /\ shards t !! sid = Some sh /\ sh_sp r.1.1 = sh_sp sh /\ sh_size r.1.1 = sh_size sh) discarded.
Proof.
  intros HI Esid Hnc Hsrc. unfold complete_migration.
  apply wp_if_fail. apply wp_get.
  destruct (shard_by_sp s o (sh_from sh)) as [[old_id old]|] eqn:Esp; [|apply wp_panic].
  specialize (Hsrc _ _ eq_refl). apply shard_by_sp_some in Esp as (_ & Eold & Hspo).
  assert (Hne : sid <> old_id) by (intros ->; congruence).
  apply wp_bind. rewrite <- Hspo. eapply wp_mono; [apply (release_spec s old_id old); assumption| |intros; exact I].
  intros _ s1 [S1 H1]. cbv zeta. wp_frame s1. intros _ s2 F2. wp_frame s1. intros _ s3 F3.
  apply wp_bind, wp_modify. specialize (H1 _ F3). destruct F3 as (_ & S3 & _).
  set (s4 := s3 <| shards ::= delete old_id |>) in *.
  wp_frame s4. intros _ s5 F5. wp_frame s4. intros _ s6 F6. apply wp_ret. cbn [fst snd].
  split; [eapply AccDom_Fv; eassumption|]. split; [|split; reflexivity].
  destruct F6 as (_ & -> & _). unfold s4. cbn. rewrite lookup_delete_ne, S3, S1 by congruence. exact Esid.
Qed.

Lemma sao_complete_acc cx c p oid cid sz ok s :
  AccDom s -> complete_ok s p oid -> wp (sao_complete cx c p oid cid sz ok) s (fun _ s' => Acc s') discarded.
Proof.
  intros HI Hok. unfold sao_complete. apply wp_if_fail. apply wp_get.
  apply wp_some_fail; intros o Eo.
  destruct (Hok o Eo) as [Hfp Hsrc].
  apply wp_if_fail.
  apply wp_some_fail; intros [sid sh] Esp.
  pose proof (shard_by_sp_some _ _ _ _ _ Esp) as (_ & Esid & _).
  destruct (sh_status sh =? ShardCompleted) eqn:Est; [apply wp_fail; exact I|]. apply Z.eqb_neq in Est.
  apply wp_if_fail.
  apply wp_if_fail.
  apply wp_some_fail; intros meta _.
  apply wp_if_fail.
  apply wp_if_fail.
  apply wp_if_fail.
  apply wp_bind.
  eapply (wp_mono _ _ (fun r t => AccDom t /\ shards t !! sid = Some sh /\ sh_sp r.1.1 = sh_sp sh /\ sh_size r.1.1 = sh_size sh) _ discarded); [| |auto].
  { destruct (sh_status sh =? ShardMigrating) eqn:Emig.
    - apply Z.eqb_eq in Emig. apply complete_migration_acc; try assumption.
      intros old_id old E. eapply Hsrc; eauto.
    - cbv zeta. wp_frame s. intros _ s1 F1.
      destruct (negb (o_status o =? OrderCompleted)) eqn:Eoc.
      + assert (Hop : o_op o <> 2).
        { intros E2. specialize (Hfp E2). rewrite Hfp in Eoc. discriminate Eoc. }
        wp_frame s. intros _ s2 F2. wp_frame s. intros _ s3 F3. apply wp_ret. cbn [fst snd].
        split; [eapply AccDom_Fv; eassumption|]. destruct F3 as (_ & -> & _). auto.
      + apply wp_ret. cbn [fst snd]. split; [eapply AccDom_Fv; eassumption|]. destruct F1 as (_ & -> & _). auto. }
  intros [[sh1 ip] o'] t (HIt & Et & Hsp1 & Hsz1). cbn [fst snd] in Hsp1, Hsz1. cbv zeta.
  wp_frame t. intros _ t1 F1. wp_frame t. intros _ t2 F2.
  apply wp_bind. eapply wp_mono; [apply pledge_spec| |auto].
  - eapply AccDom_Fv; eassumption.
  - destruct F2 as (_ & -> & _). rewrite Et. exact Est.
  - reflexivity.
  - cbn. rewrite Hsz1. eapply HI, Esid.
  - intros v t3 HA3. wp_frame t3. intros _ t4 F4. wp_frame t3. intros _ t5 F5. wp_frame t3. intros _ t6 F6.
    apply wp_modify. eapply Acc_Fv; [|exact HA3]. etransitivity; [exact F6|apply Fv_same; reflexivity].
Qed.

Lemma AccDom_frame (m : M unit) t : mok Fv true m -> AccDom t -> wp m t (fun _ t' => AccDom t') AccDom.
Proof. intros Hm H. eapply (wp_mok Fv); [exact Hm| |]; intros; eapply AccDom_Fv; eassumption. Qed.

Lemma AccDom_insert_same t k sh v :
  AccDom t -> shards t !! k = Some sh -> sh_status v = sh_status sh -> sh_sp v = sh_sp sh -> sh_size v = sh_size sh ->
  sh_pledge v = sh_pledge sh -> AccDom (t <| shards ::= <[k:=v]> |>).
Proof.
  intros [HA [D1 D2]] Ek E1 E2 E3 E4. split; [eapply AccM_insert_same; eassumption|]. split; [|exact D2].
  intros j x Ex. cbn in Ex. apply lookup_insert_Some in Ex. destruct Ex as [[<- <-]|[_ Ex]]; [rewrite E3|]; eapply D1; eassumption.
Qed.

(* what the expiry of the shard [sid] needs: it is a completed shard, and if it is finally released the
   ShardRelease call made by the end blocker (whose error the caller ignores) does not fail *)
Definition exp_pre (cx : Ctx) (sid : Z) (t : State) : Prop :=
  forall sh o, shards t !! sid = Some sh -> orders t !! sh_order sh = Some o ->
    sh_status sh = ShardCompleted /\
    (sh_renew sh = [] -> forall r t1, try_ (worker_release cx o sh) t = Ok r t1 ->
       forall e t2, shard_release (sh_sp sh) (Some sh) t1 <> Err e t2).

Lemma handle_expired_shard_acc cx sid t :
  AccDom t -> exp_pre cx sid t -> wp (handle_expired_shard cx sid) t (fun _ t' => AccDom t') AccDom.
Proof.
  intros HI Hpre. unfold handle_expired_shard. apply wp_get.
  destruct (shards t !! sid) as [sh|] eqn:Esid; [|apply wp_ret; exact HI].
  destruct (orders t !! sh_order sh) as [o|] eqn:Eo; [|apply wp_ret; exact HI].
  destruct (Hpre sh o Esid Eo) as [Hst Hrel]. clear Hpre.
  apply wp_bind. eapply wp_case; [apply (mok_wp Fv); mok_tac| |intros e t1 Ewr; exfalso; eapply try_not_err, Ewr].
  intros r t1 Ewr F1. pose proof (AccDom_Fv _ _ F1 HI) as HI1. pose proof F1 as (_ & Hsh1 & _).
  apply wp_bind. destruct (sh_renew sh) as [|ri rest] eqn:Ern.
  - apply wp_bind, wp_try.
    eapply wp_case; [apply (release_spec t1 sid sh); [exact HI1|rewrite Hsh1; exact Esid|exact Hst]| |].
    + intros u t2 _ [_ H2]. apply wp_modify, AccDom_frame; [mok_tac|apply H2; reflexivity].
    + intros e t2 Erel. exfalso. eapply (Hrel eq_refl r t1 Ewr), Erel.
  - cbv zeta. wp_frame t1. intros _ t2 F2. apply wp_bind, wp_modify, wp_get. cbv zeta.
    match goal with |- wp _ ?s _ _ => set (t3 := s) end. assert (HI3 : AccDom t3).
    { eapply (AccDom_insert_same t2 sid sh); try reflexivity; [eapply AccDom_Fv; eassumption|].
      destruct F2 as (_ & -> & _). rewrite Hsh1. exact Esid. }
    wp_frame t3. intros _ t4 F4. apply wp_ret, AccDom_frame; [mok_tac|eapply AccDom_Fv; eassumption].
Qed.

Fixpoint exp_ok (cx : Ctx) (l : list Z) (t : State) : Prop :=
  match l with
  | [] => True
  | sid :: r => exp_pre cx sid t /\ forall t', handle_expired_shard cx sid t = Ok tt t' -> exp_ok cx r t'
  end.

Lemma forM_expired_acc cx l : forall t, AccDom t -> exp_ok cx l t -> wp (forM l (handle_expired_shard cx)) t (fun _ t' => AccDom t') AccDom.
Proof.
  induction l as [|sid r IH]; intros t HI Hok; cbn [forM]; [apply wp_ret; exact HI|].
  destruct Hok as [Hpre Hnext]. apply wp_bind.
  eapply wp_case; [apply (handle_expired_shard_acc cx sid t HI Hpre)| |auto].
  intros [] t' E H. apply IH; [exact H|apply Hnext, E].
Qed.

(* hypothesis on an end blocker: no order times out at this height, and the expiring shards are releasable *)
Definition end_block_ok (cx : Ctx) (evs : list StEvent) (s : State) : Prop :=
  forall r s1, staking_tx evs s = Ok r s1 ->
    timeouts s1 !! cx_height cx = None /\ forall l, expshards s1 !! cx_height cx = Some l -> exp_ok cx l s1.

Lemma end_block_acc cx evs s : AccDom s -> end_block_ok cx evs s -> wp (end_block cx evs) s (fun _ t' => Acc t') Acc.
Proof.
  intros HI Hok. unfold end_block. apply wp_bind.
  eapply wp_case; [apply (mok_wp Fv), staking_tx_Fv| |intros e s1 _ F; eapply Acc_Fv; [exact F|apply HI]].
  intros r s1 E F1. destruct (Hok r s1 E) as [Hto Hexp]. pose proof (AccDom_Fv _ _ F1 HI) as HI1.
  apply wp_bind. unfold end_block_sao at 1. apply wp_get. rewrite Hto. apply wp_bind, wp_ret, wp_get.
  assert (Hrest : forall t, AccDom t -> wp (end_block_node cx ;;; end_block_model cx) t (fun _ t' => Acc t') Acc).
  { intros t [Ht _]. wp_frame t. intros _ t2 F2.
    eapply (wp_mok Fv); [mok_tac| |]; intros; (eapply Acc_Fv; [|exact Ht]); etransitivity; eassumption. }
  destruct (expshards s1 !! cx_height cx) as [l|] eqn:El.
  - apply wp_bind. eapply wp_mono; [apply forM_expired_acc; [exact HI1|apply Hexp; reflexivity]| |intros s' H; apply H].
    intros u t Ht. apply wp_modify. apply Hrest. eapply AccDom_Fv; [|exact Ht]. apply Fv_same; reflexivity.
  - apply wp_ret. apply Hrest, HI1.
Qed.

(** * the operations that only append shards: Store, Ready, Migrate *)

Definition append_step (s s' : State) : Prop :=
  Fv s s' \/ exists sh, sh_status sh <> ShardCompleted /\ s' = app_state s sh.
Definition appends : State -> State -> Prop := rtc append_step.

Lemma appends_Fv s s' : Fv s s' -> appends s s'.
Proof. intros H. apply rtc_once. left; exact H. Qed.
Lemma appends_app s sh : sh_status sh <> ShardCompleted -> appends s (app_state s sh).
Proof. intros H. apply rtc_once. right. exists sh. auto. Qed.

(* the second half of [Inv_ids] *)
Definition shard_ids_bounded (s : State) : Prop := forall id sh, shards s !! id = Some sh -> 0 <= id < shard_count s.

Lemma appends_keys s s' : appends s s' -> forall k, is_Some (shards s !! k) -> is_Some (shards s' !! k).
Proof.
  induction 1 as [s|s t s' Hst _ IH]; intros k Hk; [exact Hk|]. apply IH.
  destruct Hst as [(_ & -> & _)|(sh & _ & ->)]; [exact Hk|]. cbn.
  apply lookup_insert_is_Some. destruct (decide (shard_count s = k)); auto.
Qed.

Lemma appends_count s s' : appends s s' -> 0 <= shard_count s < two64 -> 0 <= shard_count s' < two64.
Proof.
  induction 1 as [s|s t s' Hst _ IH]; intros Hc; [exact Hc|]. apply IH.
  destruct Hst as [(_ & _ & ->)|(sh & _ & ->)]; [exact Hc|]. cbn. apply u64_range.
Qed.

(* The bound on the keys of the final state excludes a wrap of the counter on the way (the [exfalso] branch: the
   key 2^64-1 appended at a wrap stays stored, and no later counter lies above it), so every appended key was fresh. *)
Lemma appends_final s s' : appends s s' -> shard_ids_bounded s' -> shard_ids_bounded s -> 0 <= shard_count s < two64 -> Acc s -> Acc s'.
Proof.
  induction 1 as [s|s t s' Hst Hts IH]; intros Hs' Hs Hc HA; [exact HA|].
  destruct Hst as [F|(sh & Hnl & ->)].
  - apply IH; [exact Hs'| | |eapply Acc_Fv; eassumption].
    + destruct F as (_ & E1 & E2). unfold shard_ids_bounded. rewrite E1, E2. exact Hs.
    + destruct F as (_ & _ & ->). exact Hc.
  - destruct (Z_lt_dec (shard_count s + 1) two64) as [Hlt|Hge].
    + assert (Eu : u64 (shard_count s + 1) = shard_count s + 1) by (apply u64_id; lia).
      assert (Hfresh : shards s !! shard_count s = None).
      { destruct (shards s !! shard_count s) as [x|] eqn:Ex; [|reflexivity]. apply Hs in Ex. lia. }
      apply IH; [exact Hs'| | |].
      * intros id x Ex. cbn in Ex |- *. rewrite Eu. apply lookup_insert_Some in Ex.
        destruct Ex as [[<- _]|[_ Ex]]; [lia|]. apply Hs in Ex. lia.
      * cbn. rewrite Eu. lia.
      * unfold Acc. cbn. apply AccM_insert_nl; [rewrite Hfresh; exact I|exact Hnl|exact HA].
    + exfalso. assert (Ec : shard_count s = two64 - 1) by lia.
      assert (Hk : is_Some (shards (app_state s sh) !! shard_count s)) by (cbn; rewrite lookup_insert; eexists; reflexivity).
      apply (appends_keys _ _ Hts) in Hk. destruct Hk as [x Ex]. apply Hs' in Ex.
      assert (Hr : 0 <= shard_count (app_state s sh) < two64) by (cbn; apply u64_range).
      apply (appends_count _ _ Hts) in Hr. lia.
Qed.

(** * from the handlers to [step] *)
Lemma Acc_with_pg s p : Acc s -> Acc (with_pg s p).
Proof. intros H. exact H. Qed.

(* the operations covered by the theorem: everything but Terminate; [Hyp] further excludes the first completion
   of a force-push order ([complete_ok]) and an EndBlock in which an order times out ([end_block_ok]) *)
Definition covered (op : Op) : bool := match op with OTerminate _ _ _ _ _ => false | _ => true end.

Definition Hyp (cx : Ctx) (s : State) (op : Op) : Prop :=
  match op with
  | OStore _ | OReady _ _ _ | OMigrate _ _ _ => Inv_ids s /\ counts_small s /\ sizes_small cx s op
  | OCancel _ _ _ => Dom s
  | ORenew _ => Inv_order_shards s
  | OComplete _ p oid _ _ _ => Dom s /\ complete_ok s p oid
  | OEndBlock evs => Dom s /\ end_block_ok cx evs s
  | _ => True
  end.

Lemma step_frame cx s op m : tx_of cx op = Some m -> mok Fv true m -> Acc s -> Acc (fst (step cx s op)).
Proof.
  intros Htx Hm HA. rewrite (step_tx cx s op m Htx), deliver_state. specialize (Hm s).
  destruct (m s); auto; eapply Acc_Fv; eassumption.
Qed.

Lemma step_wp cx s op m : tx_of cx op = Some m -> wp m s (fun _ s' => Acc s') discarded -> Acc s -> Acc (fst (step cx s op)).
Proof. intros Htx W HA. rewrite (step_tx cx s op m Htx), deliver_state. unfold wp in W. destruct (m s); auto. Qed.

Lemma step_append cx s op m :
  tx_of cx op = Some m -> Inv_ids s /\ counts_small s /\ sizes_small cx s op -> complete_refs_ok s op -> mok appends true m ->
  Acc s -> Acc (fst (step cx s op)).
Proof.
  intros Htx (Hids & Hcs & Hsz) Hrefs Hm HA.
  destruct (step_ids_partial cx s op Hids Hcs Hsz Hrefs) as ([_ Hs'] & _).
  rewrite (step_tx cx s op m Htx), deliver_state in *.
  eapply (appends_final s); [| | | |exact HA].
  - specialize (Hm s). destruct (m s); auto; try reflexivity. apply appends_Fv, Fv_same; reflexivity.
  - exact Hs'.
  - exact (proj2 Hids).
  - destruct Hcs as [_ [H1 H2]]. unfold two64, two63 in *. lia.
Qed.

(* Full statement (FALSE, see [step_used_refuted_*]):
     forall cx s op, Inv_used s -> Inv_used (fst (step cx s op)).
   Proved: the three clauses together, for the covered operations, under [Hyp]. *)
Theorem step_acc_partial : forall cx s op,
  covered op = true -> Hyp cx s op -> Acc s -> Acc (fst (step cx s op)).
Proof.
  intros cx s op Hcov HH HA. destruct op; try discriminate Hcov; cbn [Hyp] in HH.
  (* frame steps: Did, NodeCreate, NodeReset, ClaimReward, UpdatePermission, ReportFaults, RecoverFaults, Send, Staking *)
  all: try solve [eapply step_frame; [reflexivity|mok_tac|exact HA]].
  - rewrite step_begin_block, block_phase_state. pose proof (begin_block_Fv cx s) as H.
    destruct (begin_block cx s); auto; eapply Acc_Fv; eassumption.
  - destruct HH as [HD Hok]. rewrite step_end_block, block_phase_state.
    pose proof (end_block_acc cx evs s (conj HA HD) Hok) as W. unfold wp in W. destruct (end_block cx evs s); auto.
  - eapply step_wp; [reflexivity|apply add_vstorage_acc, HA|exact HA].
  - eapply step_wp; [reflexivity|apply remove_vstorage_acc, HA|exact HA].
  - eapply step_append; [reflexivity|exact HH|exact I|apply (sao_store_fv appends appends_Fv appends_app)|exact HA].
  - eapply step_append; [reflexivity|exact HH|exact I|apply (sao_ready_fv appends appends_Fv appends_app)|exact HA].
  - destruct HH as [HD Hok]. eapply step_wp; [reflexivity|apply sao_complete_acc; [split; assumption|exact Hok]|exact HA].
  - eapply step_wp; [reflexivity|apply sao_cancel_acc; split; assumption|exact HA].
  - eapply step_wp; [reflexivity|apply sao_renew_acc; [exact HA|intros oid o E; apply (HH oid o E)]|exact HA].
  - eapply step_append; [reflexivity|exact HH|exact I|apply (sao_migrate_fv appends appends_Fv appends_app)|exact HA].
  - (* Simulate *) cbn. destruct (staking_tx evs s); exact HA.
Qed.
Print Assumptions step_acc_partial.

Theorem step_used_partial : forall cx s op,
  covered op = true -> Hyp cx s op -> Inv_used s -> Inv_capacity s -> Live_pledged s ->
  Inv_used (fst (step cx s op)).
Proof. intros cx s op Hc HH H1 H2 H3. exact (proj1 (step_acc_partial cx s op Hc HH (conj H1 (conj H2 H3)))). Qed.
Print Assumptions step_used_partial.

(* Inv_capacity: the lower bound follows from Inv_used and unsigned sizes; the upper bound is enforced by
   ShardPledge (uint64(Total-Used) < Size is refused) and by RemoveVstorage (Total-Used < size is refused) *)
Theorem step_capacity_partial : forall cx s op,
  covered op = true -> Hyp cx s op -> Inv_used s -> Inv_capacity s -> Live_pledged s ->
  Inv_capacity (fst (step cx s op)).
Proof. intros cx s op Hc HH H1 H2 H3. exact (proj1 (proj2 (step_acc_partial cx s op Hc HH (conj H1 (conj H2 H3))))). Qed.
Print Assumptions step_capacity_partial.

Fixpoint hyp_along (tr : list (Ctx * Op)) (s : State) : Prop :=
  match tr with
  | [] => True
  | co :: r => covered co.2 = true /\ Hyp co.1 s co.2 /\ hyp_along r (fst (step co.1 s co.2))
  end.

Theorem run_acc_partial : forall tr s, hyp_along tr s -> Acc s -> Acc (run tr s).
Proof.
  apply (run_preserves Acc hyp_along). intros cx op tr s (Hc & HH & Hr) HA.
  split; [apply step_acc_partial; assumption|exact Hr].
Qed.
Print Assumptions run_acc_partial.

Theorem run_used_partial : forall tr s, hyp_along tr s -> Inv_used s -> Inv_capacity s -> Live_pledged s ->
  Inv_used (run tr s) /\ Inv_capacity (run tr s).
Proof.
  intros tr s Hh H1 H2 H3. destruct (run_acc_partial tr s Hh (conj H1 (conj H2 H3))) as (A & B & _). auto.
Qed.
Print Assumptions run_used_partial.

(** * witnesses *)
Module CapWitness.
  Definition w_cx : Ctx := {| cx_height := 100; cx_chain := "c"; cx_time := 0; cx_seed := 0 |}.
  Definition w_sig : SigO := {| so_owner := Some ("key", "K1"); so_kid := Some ("key", "K1", ""); so_keys := ["K1"] |}.
  Definition w_params : NParams := mkNParams 0 0 0 0 1 0 "" 0 0 0 0.

  (* D23 aftermath: order 1 lists the completed shard 2 of provider A twice; the owner terminates the model *)
  Definition d_o1 : Order := mkOrder "A" "did:key:K1" "A" "cid" 1 OrderCompleted 1 [2;2] 1 1 1 0 10 "d" "c" P18 "".
  Definition d_sh : Shard := mkShard 1 ShardCompleted 1 "cid" 0 "" "A" 100 0 [].
  Definition d_meta : Meta := mkMeta "did:key:K1" "" "" 1 [] "cid" [] "" 0 "c" "" 1000 0 [] [] MetaComplete [1].
  Definition d_s : State :=
    mkState did_empty (<["A" := mkNode "" 0 0 0 [] 0 ""]> ∅) (<["A" := mkPledge 0 0 0 0 10 1]> ∅) ∅
            (Some (mkPool 0 0 0 0 0 0 10 0)) None ∅ ∅ ∅ w_params
            (<[1 := d_o1]> ∅) 5 (<[2 := d_sh]> ∅) 5
            (<["d" := d_meta]> ∅) ∅ ∅ ∅ ∅ (<["sao-A" := mkWorker 1 0 P18 0]> ∅) ∅ 0 ∅ ∅ 0.
  Definition d_op : Op := OTerminate "A" "A" "did:key:K1" "d" w_sig.

  (* D13: shard 2 of provider A (collateral 5) expires at height 100; [escrow] is what the node module holds *)
  Definition e_o1 : Order := mkOrder "A" "did:key:K1" "A" "cid" 100 OrderCompleted 1 [2] 1 1 1 0 10 "d" "c" 0 "".
  Definition e_sh : Shard := mkShard 1 ShardCompleted 1 "cid" 5 "" "A" 100 0 [].
  Definition e_s (escrow : Z) : State :=
    mkState did_empty (<["A" := mkNode "" 0 0 200 [] 0 ""]> ∅) (<["A" := mkPledge 0 5 0 0 10 1]> ∅) ∅
            (Some (mkPool 0 0 0 0 0 0 10 0)) None ∅ ∅ ∅ w_params
            (<[1 := e_o1]> ∅) 5 (<[2 := e_sh]> ∅) 5
            ∅ ∅ ∅ ∅ (<[100 := [2]]> ∅) (<["sao-A" := mkWorker 1 0 0 0]> ∅) (<["module:node" := escrow]> ∅) escrow ∅ ∅ 0.

  Lemma acc_one s p0 sh0 :
    pledges s = <["A" := p0]> ∅ -> shards s = <[2 := sh0]> ∅ -> sh_status sh0 = ShardCompleted -> sh_sp sh0 = "A" ->
    pl_used p0 = sh_size sh0 -> pl_shpledged p0 = sh_pledge sh0 -> 0 <= sh_size sh0 <= pl_total p0 -> pl_total p0 < two63 ->
    Acc s /\ Dom s.
  Proof.
    intros Ep Es Hst Hsp U1 U2 Hc Ht.
    unfold Acc, Dom, AccM, UsedM, CapM, LiveM, sizes_nonneg. rewrite Ep, Es.
    assert (Hl : forall f, lsum f "A" (<[2 := sh0]> ∅) = f sh0).
    { intros f. rewrite lsum_insert_fresh, lsum_empty, contrib_live by auto using lookup_empty. lia. }
    split; [split; [|split]|split]; intros k x E; apply lookup_singleton_Some in E as [<- <-]; rewrite ?Hl; auto; try lia.
    rewrite Hsp, lookup_insert. eexists; reflexivity.
  Qed.

  Lemma d_acc : Acc d_s /\ Dom d_s.
  Proof. apply (acc_one d_s (mkPledge 0 0 0 0 10 1) d_sh); try reflexivity; cbn; unfold two63; lia. Qed.
  Lemma e_acc x : Acc (e_s x) /\ Dom (e_s x).
  Proof. apply (acc_one (e_s x) (mkPledge 0 5 0 0 10 1) e_sh); try reflexivity; cbn; unfold two63; lia. Qed.

  Lemma ids_one s o sh : orders s = <[1 := o]> ∅ -> shards s = <[2 := sh]> ∅ -> order_count s = 5 -> shard_count s = 5 -> Inv_ids s.
  Proof.
    intros Eo Es C1 C2. unfold Inv_ids. rewrite Eo, Es, C1, C2.
    split; intros id x E; apply lookup_singleton_Some in E as [<- _]; lia.
  Qed.

  Lemma shard_order_one s o sh :
    orders s = <[1 := o]> ∅ -> shards s = <[2 := sh]> ∅ -> sh_order sh = 1 -> In 2 (o_shards o) -> Inv_shard_order s.
  Proof.
    intros Eo Es H1 H2 id x E. rewrite Es in E. apply lookup_singleton_Some in E as [<- <-].
    exists o. rewrite Eo, H1, lookup_insert. auto.
  Qed.

  Lemma e_order_shards x : Inv_order_shards (e_s x).
  Proof.
    intros oid o E. apply (lookup_singleton_Some 1 oid e_o1 o) in E as [<- <-].
    split; [apply NoDup_singleton|]. intros id [<-|[]]. eexists; reflexivity.
  Qed.

  Lemma e_release_ok r t1 :
    try_ (worker_release w_cx e_o1 e_sh) (e_s 5) = Ok r t1 -> forall e t2, shard_release (sh_sp e_sh) (Some e_sh) t1 <> Err e t2.
  Proof.
    intros Ewr e t2 Erel.
    assert (H : match try_ (worker_release w_cx e_o1 e_sh) (e_s 5) with
                | Ok _ t => match shard_release (sh_sp e_sh) (Some e_sh) t with Err _ _ => False | _ => True end
                | _ => True
                end) by (vm_compute; exact I).
    rewrite Ewr, Erel in H. exact H.
  Qed.
End CapWitness.

(* Without NoDup of the shard lists (what defect D23 destroys) the statement is false, and so is the
   lower bound of Inv_capacity: a shard listed twice is released twice. *)
Theorem step_used_refuted_D23 : exists cx s op,
  Inv_used s /\ Inv_capacity s /\ Live_pledged s /\ Dom s /\ Inv_ids s /\ Inv_shard_order s /\
  (forall oid o id, orders s !! oid = Some o -> In id (o_shards o) -> is_Some (shards s !! id)) /\
  ~ Inv_order_shards s /\
  ~ Inv_used (fst (step cx s op)) /\ ~ Inv_capacity (fst (step cx s op)).
Proof.
  exists CapWitness.w_cx, CapWitness.d_s, CapWitness.d_op.
  destruct CapWitness.d_acc as [(H1 & H2 & H3) HD].
  assert (Ep : pledges (fst (step CapWitness.w_cx CapWitness.d_s CapWitness.d_op)) !! "A" = Some (mkPledge 0 0 0 0 10 (-1)))
    by (vm_compute; reflexivity).
  assert (El : live_sum sh_size "A" (fst (step CapWitness.w_cx CapWitness.d_s CapWitness.d_op)) = 0) by (vm_compute; reflexivity).
  split; [exact H1|]. split; [exact H2|]. split; [exact H3|]. split; [exact HD|].
  split; [eapply CapWitness.ids_one; reflexivity|].
  split; [eapply CapWitness.shard_order_one; try reflexivity; left; reflexivity|].
  split.
  { intros oid o id E Hin. apply (lookup_singleton_Some 1 oid CapWitness.d_o1 o) in E as [<- <-].
    destruct Hin as [<-|[<-|[]]]; eexists; reflexivity. }
  split.
  { intros H. destruct (H 1 CapWitness.d_o1) as [Hnd _]; [reflexivity|]. cbn in Hnd. apply NoDup_cons in Hnd as [Hn _]. apply Hn. left. }
  split.
  - intros H. destruct (H "A" _ Ep) as [Hu _]. rewrite El in Hu. cbn in Hu. discriminate Hu.
  - intros H. specialize (H "A" _ Ep). cbn in H. lia.
Qed.
Print Assumptions step_used_refuted_D23.

(* The end blocker ignores the error of ShardRelease and removes the shard anyway (x/sao/keeper/expire_management.go,
   HandleExpiredShard): when the node escrow cannot pay the collateral back (D13), UsedStorage and
   TotalShardPledged keep counting a shard that no longer exists. *)
Theorem step_used_refuted_D13 : exists cx s evs,
  Inv_used s /\ Inv_capacity s /\ Live_pledged s /\ Dom s /\ Inv_ids s /\ Inv_shard_order s /\ Inv_order_shards s /\
  timeouts s !! cx_height cx = None /\
  ~ Inv_used (fst (step cx s (OEndBlock evs))).
Proof.
  exists CapWitness.w_cx, (CapWitness.e_s 0), [].
  destruct (CapWitness.e_acc 0) as [(H1 & H2 & H3) HD].
  assert (Ep : pledges (fst (step CapWitness.w_cx (CapWitness.e_s 0) (OEndBlock []))) !! "A" = Some (mkPledge 0 5 0 0 10 1))
    by (vm_compute; reflexivity).
  assert (El : live_sum sh_size "A" (fst (step CapWitness.w_cx (CapWitness.e_s 0) (OEndBlock []))) = 0) by (vm_compute; reflexivity).
  split; [exact H1|]. split; [exact H2|]. split; [exact H3|]. split; [exact HD|].
  split; [eapply CapWitness.ids_one; reflexivity|].
  split; [eapply CapWitness.shard_order_one; try reflexivity; left; reflexivity|].
  split; [apply CapWitness.e_order_shards|]. split; [reflexivity|].
  intros H. destruct (H "A" _ Ep) as [Hu _]. rewrite El in Hu. cbn in Hu. discriminate Hu.
Qed.
Print Assumptions step_used_refuted_D13.

(** non-vacuity: a provider holding one completed shard; the funded end blocker releases it *)
Example capacity_nonvacuous :
  let s := CapWitness.e_s 5 in
  Inv_used s /\ Inv_capacity s /\ Live_pledged s /\ Dom s /\ Inv_order_shards s /\
  (exists sh, shards s !! 2 = Some sh /\ sh_status sh = ShardCompleted /\ live_sum sh_size "A" s = 1) /\
  Hyp CapWitness.w_cx s (OEndBlock []) /\ Hyp CapWitness.w_cx s (OComplete "A" "A" 1 "cid" 1 true) /\
  Hyp CapWitness.w_cx s (ORenew {| rn_creator := "A"; rn_provider := "A"; rn_owner := "did:key:K1"; rn_duration := 3600;
                                   rn_timeout := 10; rn_data := ["d"]; rn_sig := CapWitness.w_sig |}) /\
  Acc (fst (step CapWitness.w_cx s (OEndBlock []))) /\
  pledges (fst (step CapWitness.w_cx s (OEndBlock []))) !! "A" = Some (mkPledge 0 0 0 0 10 0).
Proof.
  cbv zeta. destruct (CapWitness.e_acc 5) as [HA HD]. pose proof HA as (H1 & H2 & H3).
  pose proof (CapWitness.e_order_shards 5) as Hios.
  assert (Heb : Hyp CapWitness.w_cx (CapWitness.e_s 5) (OEndBlock [])).
  { split; [exact HD|]. intros r s1 E. cbn in E. injection E as <- <-. split; [reflexivity|].
    intros l El. vm_compute in El. injection El as <-. split; [|intros; exact I].
    intros sh o E1 E2. apply (lookup_singleton_Some 2 2 CapWitness.e_sh sh) in E1 as [_ <-].
    apply (lookup_singleton_Some 1 1 CapWitness.e_o1 o) in E2 as [_ <-].
    split; [reflexivity|]. intros _. exact CapWitness.e_release_ok. }
  split; [exact H1|]. split; [exact H2|]. split; [exact H3|]. split; [exact HD|]. split; [exact Hios|].
  split; [exists CapWitness.e_sh; split; [reflexivity|split; [reflexivity|vm_compute; reflexivity]]|].
  split; [exact Heb|].
  split.
  { split; [exact HD|]. intros o E. apply (lookup_singleton_Some 1 1 CapWitness.e_o1 o) in E as [_ <-].
    split; [intros E2; discriminate E2|]. intros sid sh old_id old Esp Hm. vm_compute in Esp. injection Esp as <- <-. discriminate Hm. }
  split; [exact Hios|].
  split; [apply step_acc_partial; [reflexivity|exact Heb|exact HA]|vm_compute; reflexivity].
Qed.
Print Assumptions capacity_nonvacuous.

(** * the market worker primitives (towards Inv_worker, which is not proved here) *)
Lemma worker_append_spec cx o sh s :
  exists w', worker_append cx o sh s = Ok tt (s <| workers ::= <[worker_name (sh_sp sh) := w']> |>) /\
    let w := default (mkWorker 0 0 0 0) (workers s !! worker_name (sh_sp sh)) in
    w_storage w' = u64 (w_storage w + sh_size sh) /\ w_rate w' = w_rate w + income_of o sh.
Proof. unfold worker_append, bind, get, modify. eexists. split; [reflexivity|]. cbn. auto. Qed.

Lemma worker_release_spec cx o sh s w :
  workers s !! worker_name (sh_sp sh) = Some w ->
  exists w', worker_release cx o sh s = Ok tt (s <| workers ::= <[worker_name (sh_sp sh) := w']> |>) /\
    w_storage w' = u64 (w_storage w - sh_size sh) /\ w_rate w' = w_rate w - income_of o sh.
Proof. intros E. unfold worker_release, bind, get, modify. rewrite E. eexists. split; [reflexivity|]. cbn. auto. Qed.

Lemma worker_release_missing cx o sh s :
  workers s !! worker_name (sh_sp sh) = None -> worker_release cx o sh s = Err "worker not found" s.
Proof. intros E. unfold worker_release, bind, get. rewrite E. reflexivity. Qed.
