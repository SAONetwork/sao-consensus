(* C12, bounded response by a variant: an unfinished order handed to providers is resolved -- fully stored, or given up
   with the missing part cancelled / dropped and refunded -- within at most 11 + (number of providers not yet tried)
   timeout checks. Every check that neither resolves the order nor finds it younger than ten timeouts re-assigns its
   stalled shards to providers that were not yet tried for it (Placement.timeout_new_shards_fresh), and there are only
   finitely many of those. *)
From SaoVerif Require Import Base.Prelude Base.Ints Base.Dec Model.Did Model.Types Model.Monad Model.Bank Model.Select
     Model.Node Model.Storage Model.Sao Model.Hooks Model.App Model.Spec Proofs.SelectFacts Proofs.SelectApp Proofs.Frame Model.Inv Model.Monitors Proofs.RefInt Proofs.Schedule Proofs.Placement.
From RecordUpdate Require Import RecordUpdate.
Import RecordSetNotations.

(** * providers tried for an order, providers left *)
(* [present] is [Schedule.listed], term for term *)
Definition present (s : State) (o : Order) : list (Z * Shard) :=
  omap (fun id => match shards s !! id with Some sh => Some (id, sh) | None => None end) (o_shards o).
Definition provs (s : State) (o : Order) : list string := map (fun x : Z * Shard => sh_sp x.2) (present s o).
Definition has_waiting (s : State) (o : Order) : Prop :=
  exists id sh, In id (o_shards o) /\ shards s !! id = Some sh /\ sh_status sh = ShardWaiting.
(* the variant: pledged providers not (yet) holding or having timed out on a shard of the order *)
Definition untried (s : State) (o : Order) : nat :=
  length (filter (fun a => negb (in_list a (provs s o))) (map fst (map_to_list (pledges s)))).

Lemma untried_same s s' o : shards s' = shards s -> pledges s' = pledges s -> untried s' o = untried s o.
Proof. intros E1 E2. unfold untried, provs, present. rewrite E1, E2. reflexivity. Qed.

Lemma untried_lt s s' o o' a p :
  pledges s' = pledges s -> pledges s !! a = Some p -> in_list a (provs s o) = false ->
  In a (provs s' o') -> (forall y, In y (provs s o) -> In y (provs s' o')) ->
  (untried s' o' < untried s o)%nat.
Proof.
  intros Ep Ha Hn Ha' Hsub. unfold untried. rewrite Ep.
  set (f := fun y => negb (in_list y (provs s o))). set (g := fun y => negb (in_list y (provs s' o'))).
  rewrite <- (list_filter_filter_l g f).
  - apply (filter_length_lt _ _ a).
    + apply elem_of_list_filter. split; [unfold f; rewrite Hn; exact I|].
      apply elem_of_list_In, in_map_iff. exists (a, p). split; [reflexivity|apply elem_of_list_In, elem_of_map_to_list, Ha].
    + unfold g. apply elem_of_list_In, in_list_true in Ha'. rewrite Ha'. exact id.
  - intros y. unfold f, g. destruct (in_list y (provs s o)) eqn:E; [|intros _; exact I].
    apply in_list_true, elem_of_list_In, Hsub, elem_of_list_In, in_list_true in E. rewrite E. exact id.
Qed.

(** * one timeout check: resolved, too young to give up, or re-assigned to untried providers *)
(* the side conditions of [Placement.timeout_new_shards_fresh], and the listed ids below the counter; they hold in
   reachable states ([Inv_ids], [counts_small]) *)
Definition side (cx : Ctx) (s : State) (o : Order) : Prop :=
  0 <= cx_seed cx /\ 0 <= shard_count s /\ shard_count s + Z.of_nat (length (o_shards o)) < two64 /\ fresh_above s /\
  forall id, In id (o_shards o) -> id < shard_count s.

Definition resolved (oid : Z) (s' : State) : Prop :=
  orders s' !! oid = None \/ exists o', orders s' !! oid = Some o' /\ ~ has_waiting s' o'.
(* the test of the check, as the Go code computes it: MAX_TRIES * timeout is a uint64 product, the age a uint64 difference *)
Definition young (cx : Ctx) (oid : Z) (o : Order) (s s' : State) : Prop :=
  u64 (cx_height cx - o_created o) <= (MAX_TRIES * o_timeout o) mod two64 /\
  orders s' !! oid = Some o /\ shards s' = shards s /\ pledges s' = pledges s /\ shard_count s' = shard_count s.
Definition reassigned (oid : Z) (o : Order) (s s' : State) : Prop :=
  exists o' news, orders s' !! oid = Some o' /\ o' = o <| o_shards := o_shards o ++ news |> /\
    pledges s' = pledges s /\ (untried s' o' < untried s o)%nat /\ fresh_above s' /\ 0 <= shard_count s' /\
    shard_count s' = shard_count s + Z.of_nat (length news) /\ (forall id, In id (o_shards o') -> id < shard_count s').

Lemma remove_shards_lookup ids s id : ~ In id ids ->
  fold_left (fun m i => delete i m) ids (shards s) !! id = shards s !! id.
Proof.
  generalize (shards s). induction ids as [|x r IH]; intros m Hn; [reflexivity|]. cbn [fold_left].
  rewrite IH by (intros Hc; apply Hn; right; exact Hc). apply lookup_delete_ne. intros ->. apply Hn. left. reflexivity.
Qed.

Theorem timeout_check_cases : forall cx oid s s' o,
  handle_timeout_order cx oid s = Ok tt s' -> orders s !! oid = Some o ->
  o_status o <> OrderPending -> u64 (cx_height cx + o_timeout o) < u64 (o_created o + o_duration o) ->
  has_waiting s o -> side cx s o ->
  resolved oid s' \/ young cx oid o s s' \/ reassigned oid o s s'.
Proof.
  intros cx oid s s' o H Ho Hnp Hlt (wid & wsh & Hwid & Hwsh & Hw) (Hseed & H0 & Hb & Hf & Hids).
  (* the way in is that of [Schedule.timeout_progress_step_partial] *)
  unfold handle_timeout_order in H. rewrite bind_get, Ho in H.
  apply if_false_ok in H; [|apply Z.eqb_neq; exact Hnp]. apply if_false_ok in H; [|apply Z.leb_gt; exact Hlt].
  cbv zeta in H. fold (present s o) in H.
  set (tshards := filter (fun x : Z * Shard => sh_status x.2 =? ShardWaiting) (present s o)) in H.
  set (o1 := o <| o_replica := _ |> <| o_shards := _ |>) in H.
  assert (Hin : In (wid, wsh) tshards).
  { apply elem_of_list_In, elem_of_list_filter. split; [simpl; rewrite Hw; exact I|]. apply elem_of_list_In, In_listed. auto. }
  apply if_false_ok in H; [|destruct tshards; [destruct Hin|reflexivity]].
  apply bind_ok in H. destruct H as (rand & s1 & Hr & H).
  destruct rand as [|r0 rand].
  - (* nobody to re-assign to *)
    destruct (random_sp_m_exact _ _ _ _ _ _ _ Hr) as (r & ->).
    destruct (_ <? _) eqn:E4.
    + left. (* give up *)
      unfold remove_shards in H. destruct (negb (o_status o =? OrderCompleted)); rewrite bind_modify in H.
      * apply bind_ok in H. destruct H as (a & s3 & H3 & H). injection H as <-.
        apply try_cancel_order in H3 as [H3|(-> & _)]; [left; exact H3|right].
        exists o. split; [exact Ho|].
        intros (id & sh & Hid & Hsh & _). unfold set in Hsh; cbn in Hsh. rewrite remove_all_lookup in Hsh by exact Hid. discriminate.
      * right. (* the order stays, without the replicas nobody stored *)
        cbv zeta in H. apply if_ok in H; [|discriminate].
        apply bind_ok in H. destruct H as (o2 & s3 & H3 & H). injection H as <-.
        set (completed := map fst (filter (fun x : Z * Shard => sh_status x.2 =? ShardCompleted) (present s o))) in *.
        set (uncompleted := map fst (filter (fun x : Z * Shard => negb (sh_status x.2 =? ShardCompleted)) (present s o))) in H3.
        assert (Esh : o_shards o2 = completed).
        { revert H3. match goal with |- ?m _ = _ -> _ => assert (R : returns (fun o2 => o_shards o2 = completed) m) end.
          { repeat returns_step; reflexivity. }
          apply R. }
        apply (keeps_ok shards) in H3; [|keeps_go].
        exists o2. split; [apply lookup_insert|].
        intros (id & sh & Hid & Hsh & Hst). unfold set in Hsh, H3; cbn in Hsh, H3. rewrite H3 in Hsh.
        rewrite Esh in Hid. apply in_map_iff in Hid as ([i shx] & <- & Hx). cbn [fst] in Hsh.
        apply elem_of_list_In, elem_of_list_filter in Hx as [Hc Hx]. cbn in Hc. apply elem_of_list_In, In_listed in Hx as [_ Epx].
        destruct (In_dec Z.eq_dec i uncompleted) as [Hu|Hu].
        -- rewrite remove_all_lookup in Hsh by exact Hu. discriminate.
        -- rewrite remove_shards_lookup in Hsh by exact Hu. rewrite Epx in Hsh. injection Hsh as <-.
           rewrite Hst in Hc. cbn in Hc. destruct Hc.
    + right. left. injection H as <-.
      apply Z.ltb_ge in E4. split; [exact E4|]. split; [exact Ho|]. repeat split; reflexivity.
  - right. right.
    match type of H with bind (?F ?l0 ?o0) _ _ = _ => change (F l0 o0) with (reassign oid l0 o0) in H end.
    apply bind_ok in H. destruct H as (o' & t' & Hre & H). rewrite bind_modify in H. injection H as <-.
    destruct (timeout_reassign_spec cx oid s o (r0 :: rand) s1 o' t' Hr Hre Hseed H0 Hb Hf) as (_ & Hall & Hl_len & Eo' & Hc & Hf' & Kp & Hsp & Hnew').
    change (listed s o) with (present s o) in Hall, Hl_len, Eo', Hc, Hnew'. fold tshards in Hl_len, Eo', Hc, Hnew'.
    set (l := combine (r0 :: rand) tshards) in *.
    set (news := map (fun k => shard_count s + Z.of_nat k) (seq 0 (length l))) in *.
    exists o', news. rewrite (untried_same t' _ o') by reflexivity. unfold set; cbn.
    split; [apply lookup_insert|]. split; [exact Eo'|]. split; [exact Kp|].
    split; [|split; [exact Hf'|split; [lia|split; [rewrite Hc; unfold news; rewrite map_length, seq_length; reflexivity|]]]].
    + (* the first of the chosen providers has a pledge, was not tried, and holds the first new shard *)
      destruct (Hall r0 (or_introl eq_refl)) as (n & _ & Hel & Hig).
      unfold eligible in Hel. apply andb_prop in Hel as [Hel _]. apply andb_prop in Hel as [Hel _]. unfold free_ok in Hel. cbn in Hel.
      destruct (pledges s !! r0) as [p|] eqn:Ep; [|discriminate].
      assert (H0l : exists x, l !! 0%nat = Some (r0, x)) by (subst l; destruct tshards as [|x ts]; [destruct Hin|exists x; reflexivity]).
      destruct H0l as (x & H0l). destruct (Hnew' _ _ H0l) as (sh' & E & P & _).
      apply (untried_lt s t' o o' r0 p Kp Ep Hig).
      * apply in_map_iff. exists (shard_count s + Z.of_nat 0, sh'). split; [exact P|]. apply In_listed. split; [|exact E].
        rewrite Eo'. apply in_or_app. right. apply in_map_iff. exists 0%nat. split; [reflexivity|apply in_seq; apply lookup_lt_Some in H0l; lia].
      * intros y Hy. apply in_map_iff in Hy as ([id sh] & <- & Hx). apply In_listed in Hx as [Hid Hsh].
        specialize (Hsp id (Hids id Hid)). rewrite Hsh in Hsp.
        destruct (shards t' !! id) as [sh2|] eqn:Eid; [|discriminate Hsp]. injection Hsp as Hsp.
        apply in_map_iff. exists (id, sh2). split; [exact Hsp|]. apply In_listed. split; [|exact Eid].
        rewrite Eo'. apply in_or_app. left. exact Hid.
    + intros id Hid. rewrite Eo' in Hid. change (In id (o_shards o ++ news)) in Hid. apply in_app_iff in Hid as [Hid|Hid].
      * specialize (Hids id Hid). lia.
      * rewrite Hc. unfold news in Hid. apply in_map_iff in Hid as (k & <- & Hk). apply in_seq in Hk. lia.
Qed.
Print Assumptions timeout_check_cases.

(** * the bound: a chain of checks on an unresolved order is short *)
(* [chain oid tau h cxs s]: the checks [cxs] run from [s] with no operation in between, each [tau] blocks after the
   previous one ([h] is the height of the previous check), on the order still unresolved, returning normally *)
Inductive chain (oid tau : Z) : Z -> list Ctx -> State -> Prop :=
| chain_nil h s : chain oid tau h [] s
| chain_cons h cx cxs s s' o :
    cx_height cx = h + tau -> 0 <= cx_height cx < two63 ->
    orders s !! oid = Some o -> o_timeout o = tau -> o_status o <> OrderPending -> has_waiting s o -> side cx s o ->
    u64 (cx_height cx + o_timeout o) < u64 (o_created o + o_duration o) ->
    handle_timeout_order cx oid s = Ok tt s' ->
    chain oid tau (cx_height cx) cxs s' ->
    chain oid tau h (cx :: cxs) s.

Theorem checks_bounded : forall oid tau c cxs h s o,
  chain oid tau h cxs s -> orders s !! oid = Some o -> o_created o = c -> 0 < tau < two31 -> 0 <= c <= h ->
  Z.of_nat (length cxs) <= Z.max 0 ((c + MAX_TRIES * tau - h) / tau) + Z.of_nat (untried s o) + 1.
Proof.
  intros oid tau c cxs. induction cxs as [|cx cxs IH]; intros h s o Hch Ho Hc Htau Hh.
  - cbn. lia.
  - inversion Hch as [|h0 cx0 cxs0 s0 s' o0 Hht Hhr Ho0 Hto Hnp Hw Hside Hlong Hrun Hrest]; subst.
    rewrite Ho in Ho0. injection Ho0 as <-.
    destruct (timeout_check_cases cx oid s s' o Hrun Ho Hnp Hlong Hw Hside) as [Hres|[Hy|Hre]].
    + (* resolved: no further check on an unresolved order *)
      destruct cxs as [|cx2 cxs2]; [cbn; lia|]. exfalso.
      inversion Hrest as [|h1 cx1 cxs1 s1 s2 o2 _ _ Ho2 _ _ Hw2 _ _ _ _]; subst.
      destruct Hres as [Hn|(o'' & Ho'' & Hnw)]; [congruence|]. rewrite Ho2 in Ho''. injection Ho'' as <-. contradiction.
    + destruct Hy as (Hyoung & Ho' & Hsh & Hpl & _).
      assert (Ey : u64 (cx_height cx - o_created o) = cx_height cx - o_created o).
      { apply u64_id. unfold two63, two64 in *. lia. }
      assert (Em : (MAX_TRIES * o_timeout o) mod two64 = MAX_TRIES * o_timeout o).
      { apply Z.mod_small. unfold MAX_TRIES, two31, two64 in *. lia. }
      rewrite Ey, Em in Hyoung.
      specialize (IH (cx_height cx) s' o Hrest Ho' eq_refl Htau ltac:(lia)).
      rewrite (untried_same s s' o Hsh Hpl) in IH. cbn [length]. rewrite Nat2Z.inj_succ.
      assert (Hdiv : (o_created o + MAX_TRIES * o_timeout o - (h + o_timeout o)) / o_timeout o = (o_created o + MAX_TRIES * o_timeout o - h) / o_timeout o - 1).
      { replace (o_created o + MAX_TRIES * o_timeout o - (h + o_timeout o)) with ((o_created o + MAX_TRIES * o_timeout o - h) + (-1) * o_timeout o) by lia.
        rewrite Z.div_add by lia. lia. }
      rewrite Hht in IH. rewrite Hdiv in IH.
      assert (1 <= (o_created o + MAX_TRIES * o_timeout o - h) / o_timeout o).
      { apply Z.div_le_lower_bound; lia. }
      lia.
    + destruct Hre as (o' & news & Ho' & Eo' & Hpl & Hlt' & _).
      assert (Ec : o_created o' = o_created o) by (rewrite Eo'; reflexivity).
      specialize (IH (cx_height cx) s' o' Hrest Ho' Ec Htau ltac:(lia)).
      cbn [length]. rewrite Nat2Z.inj_succ.
      assert (Hmono : (o_created o + MAX_TRIES * o_timeout o - cx_height cx) / o_timeout o <= (o_created o + MAX_TRIES * o_timeout o - h) / o_timeout o).
      { apply Z.div_le_mono; lia. }
      lia.
Qed.
Print Assumptions checks_bounded.

Lemma untried_le_pledges s o : (untried s o <= size (pledges s))%nat.
Proof.
  unfold untried. etransitivity; [apply filter_length|]. rewrite map_length. unfold size, map_size. lia.
Qed.

(* Bounded response; 11 is MAX_TRIES + 1. From the hand-out of an order on (h >= created), the timeout mechanism examines it while
   unresolved at most 11 + (number of providers with a pledge) times: by then it is fully stored, cancelled and
   refunded, or its missing replicas are dropped and refunded. *)
Corollary checks_bounded_by_population : forall oid tau cxs h s o,
  chain oid tau h cxs s -> orders s !! oid = Some o -> 0 < tau < two31 -> 0 <= o_created o <= h ->
  Z.of_nat (length cxs) <= 11 + Z.of_nat (size (pledges s)).
Proof.
  intros oid tau cxs h s o Hch Ho Htau Hh.
  pose proof (checks_bounded oid tau (o_created o) cxs h s o Hch Ho eq_refl Htau Hh) as H.
  pose proof (untried_le_pledges s o) as Hu.
  assert (Hd : (o_created o + MAX_TRIES * tau - h) / tau <= MAX_TRIES).
  { apply Z.div_le_upper_bound; [lia|]. unfold MAX_TRIES. nia. }
  unfold MAX_TRIES in *. lia.
Qed.

(** * non-vacuity *)
(* the order of RefInt.W before its provider completed, two checks: the first re-assigns the shard of "T" to "S" (the
   only untried provider), the second finds nobody left and, the order being younger than ten timeouts, re-schedules *)
Definition p_s1' : State := match handle_timeout_order (W.cxh 105) 1 W.s1 with Ok _ t => t | _ => W.s1 end.
Definition p_s2' : State := match handle_timeout_order (W.cxh 205) 1 p_s1' with Ok _ t => t | _ => p_s1' end.

(* what a link of [chain] asks of the state about order 1, as data small enough to be compared after evaluation *)
Definition link_view (s : State) :=
  ((fun o => (o_timeout o, o_status o, o_created o, o_duration o, o_shards o,
              map (fun id => sh_status <$> shards s !! id) (o_shards o), untried s o)) <$> orders s !! 1,
   shard_count s, mon_ids s).

Example chain_nonvacuous :
  chain 1 100 5 [W.cxh 105; W.cxh 205] W.s1 /\
  (exists o, orders W.s1 !! 1 = Some o /\ untried W.s1 o = 1%nat /\ o_created o = 5 /\ o_timeout o = 100) /\
  (exists o', orders p_s2' !! 1 = Some o' /\ untried p_s2' o' = 0%nat /\ length (o_shards o') = 2%nat).
Proof.
  (* as in [Placement.timeout_reassign_nonvacuous] *)
  assert (V : match handle_timeout_order (W.cxh 105) 1 W.s1 with
              | Ok _ t1 => match handle_timeout_order (W.cxh 205) 1 t1 with
                           | Ok _ t2 => Some (link_view W.s1, link_view t1, link_view t2)
                           | _ => None
                           end
              | _ => None
              end = Some ((Some (100, OrderDataReady, 5, 3600, [1], [Some ShardWaiting], 1%nat), 2, true),
                          (Some (100, OrderDataReady, 5, 3600, [1; 2], [Some ShardTimeout; Some ShardWaiting], 0%nat), 3, true),
                          (Some (100, OrderDataReady, 5, 3600, [1; 2], [Some ShardTimeout; Some ShardWaiting], 0%nat), 3, true)))
    by (vm_compute; reflexivity).
  unfold p_s2', p_s1'. revert V. generalize W.s1. intros s V.
  destruct (handle_timeout_order (W.cxh 105) 1 s) as [[] t1| | |] eqn:R1; try discriminate V.
  destruct (handle_timeout_order (W.cxh 205) 1 t1) as [[] t2| | |] eqn:R2; try discriminate V.
  unfold link_view in V. injection V as Vo Vc Vm Vo1 Vc1 Vm1 Vo2 _ _.
  destruct (orders s !! 1) as [o|] eqn:Ho; [|discriminate Vo]. injection Vo as Hto Hst Hcr Hdu Hids Hsts Hu.
  destruct (orders t1 !! 1) as [o1|] eqn:Ho1; [|discriminate Vo1]. injection Vo1 as Hto1 Hst1 Hcr1 Hdu1 Hids1 Hsts1 _.
  destruct (orders t2 !! 1) as [o2|]; [|discriminate Vo2]. injection Vo2 as _ _ _ _ Hids2 _ Hu2.
  rewrite Hids in Hsts. rewrite Hids1 in Hsts1. cbn [map] in Hsts, Hsts1.
  destruct (shards s !! 1) as [sh|] eqn:E1; [|discriminate Hsts]. injection Hsts as Hw.
  destruct (shards t1 !! 2) as [sh2|] eqn:E2; [|destruct (shards t1 !! 1); discriminate Hsts1].
  assert (Hw2 : sh_status sh2 = ShardWaiting) by (destruct (shards t1 !! 1); [injection Hsts1 as _ Hw2; exact Hw2|discriminate Hsts1]).
  split; [|split; [exists o; auto|exists o2; rewrite Hids2; auto]].
  eapply (chain_cons 1 100 5 (W.cxh 105) _ s t1 o); try assumption.
  - reflexivity.
  - split; vm_compute; congruence.
  - rewrite Hst. discriminate.
  - exists 1, sh. rewrite Hids. split; [left; reflexivity|auto].
  - unfold side. rewrite Hids, Vc. split; [cbn; lia|]. split; [lia|]. split; [reflexivity|].
    split; [exact (fresh_of_ids s (mon_ids_sound s Vm))|]. intros id [<-|[]]. reflexivity.
  - rewrite Hto, Hcr, Hdu. reflexivity.
  - eapply (chain_cons 1 100 105 (W.cxh 205) _ t1 t2 o1); try assumption.
    + reflexivity.
    + split; vm_compute; congruence.
    + rewrite Hst1. discriminate.
    + exists 2, sh2. rewrite Hids1. split; [right; left; reflexivity|auto].
    + unfold side. rewrite Hids1, Vc1. split; [cbn; lia|]. split; [lia|]. split; [reflexivity|].
      split; [exact (fresh_of_ids t1 (mon_ids_sound t1 Vm1))|]. intros id [<-|[<-|[]]]; reflexivity.
    + rewrite Hto1, Hcr1, Hdu1. reflexivity.
    + apply chain_nil.
Qed.
