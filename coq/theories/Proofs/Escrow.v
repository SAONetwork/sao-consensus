(* C06 / C04 / C16 -- the order-module escrow covers every order payment taken and not yet
   settled; a data model has at most one unfinished storage order.

   Method.  [slack s] = balance of the order escrow account minus the sum of what the
   unsettled orders owe.  Every keeper function is shown to relate its initial and final
   state (normal AND error return, because the end-blocker keeps the writes of an error
   return) by a preorder that never lowers the slack, under the state hypotheses [G]
   (themselves shown to be preserved).  Functions that lower and raise the slack in two
   separate steps (store, first completion, cancel, terminate) are followed step by step
   with the Hoare triple [ht]. *)
From SaoVerif Require Import Base.Prelude Base.Ints Base.Dec Model.Did Model.Types Model.Monad Model.Bank Model.Select
     Model.Node Model.Storage Model.Sao Model.Hooks Model.App Model.Spec Model.Inv Proofs.Sums Proofs.DidInv Proofs.Frame.
(* required, not imported: Money.v has lemmas of its own under names that Frame.v also uses
   ([keeps], [send_strict_ok], [new_order_ok], ...) *)
From SaoVerif Require Proofs.Money.
From RecordUpdate Require Import RecordUpdate.
Import RecordSetNotations.

Notation pay_not_escrow := Money.pay_not_escrow.
Notation ESC := (macc ORDER).

(** * The value at a key *)
Lemma sum_map_update {K} `{Countable K} {A} (f : A -> Z) (m : gmap K A) k x v :
  m !! k = Some x -> sum_map f (<[k:=v]> m) = sum_map f m - f x + f v.
Proof. intros E. rewrite sum_map_insert, E. lia. Qed.

Definition at_key {K} `{Countable K} {A} (f : A -> Z) (m : gmap K A) (k : K) : Z :=
  match m !! k with Some x => f x | None => 0 end.

(** * The invariant, its side conditions, the relations *)
Definition Inv_amounts (s : State) : Prop := forall oid o, orders s !! oid = Some o -> 0 <= o_amount o.

(* the statuses the chain ever stores: a renewal order is born completed *)
Definition status_ok (o : Order) : Prop :=
  o_status o = OrderCompleted \/ (o_op o <> 3 /\ (o_status o = OrderPending \/ o_status o = OrderDataReady)).
Definition Inv_status (s : State) : Prop := forall oid o, orders s !! oid = Some o -> status_ok o.

Definition no_escrow_pledge (s : State) : Prop := pledges s !! ESC = None.

Definition G (s : State) : Prop := Inv_amounts s /\ Inv_status s /\ pay_not_escrow s /\ no_escrow_pledge s.

Definition esc (s : State) : Z := balance s ESC.
Definition owes_at (s : State) (k : Z) : Z := at_key order_owes (orders s) k.
Definition slack (s : State) : Z := esc s - sum_map order_owes (orders s).

Lemma escrow_slack s : Inv_order_escrow s <-> 0 <= slack s.
Proof. unfold Inv_order_escrow, slack, esc. lia. Qed.

Lemma order_owes_cases o : order_owes o = 0 \/ order_owes o = o_amount o.
Proof. unfold order_owes. destruct (_ && _); auto. Qed.
Lemma order_owes_nonneg o : 0 <= o_amount o -> 0 <= order_owes o.
Proof. destruct (order_owes_cases o); lia. Qed.
Lemma order_owes_le o : 0 <= o_amount o -> order_owes o <= o_amount o.
Proof. destruct (order_owes_cases o); lia. Qed.
Lemma order_owes_completed o : o_status o = OrderCompleted -> order_owes o = 0.
Proof. unfold order_owes. intros ->. rewrite andb_false_r. reflexivity. Qed.
Lemma order_owes_renewal o : o_op o = 3 -> order_owes o = 0.
Proof. unfold order_owes. intros ->. reflexivity. Qed.
Lemma order_owes_open o : status_ok o -> o_status o <> OrderCompleted -> order_owes o = o_amount o.
Proof.
  intros [H|(Hop & Hs)] Hn; [contradiction|]. unfold order_owes.
  apply Z.eqb_neq in Hop. rewrite Hop. destruct Hs as [-> | ->]; reflexivity.
Qed.
Definition same_owes (o' o : Order) : Prop :=
  o_op o' = o_op o /\ o_status o' = o_status o /\ o_amount o' = o_amount o.
Lemma order_owes_same o o' : same_owes o' o -> order_owes o' = order_owes o.
Proof. unfold order_owes. intros (-> & -> & ->). reflexivity. Qed.
Lemma status_ok_same o o' : same_owes o' o -> status_ok o -> status_ok o'.
Proof. unfold status_ok. intros (-> & -> & _). auto. Qed.

Lemma owes_at_nonneg s k : Inv_amounts s -> 0 <= owes_at s k.
Proof.
  intros Ha. unfold owes_at, at_key. destruct (orders s !! k) as [o|] eqn:E; [|lia].
  apply order_owes_nonneg, (Ha k o E).
Qed.

(* Each relation holds under [G] of the first state and hands [G] on to the second, so that they compose
   as preorders with no invariant beside them.  The handler proofs use [RO] (order table untouched) and
   [RE] (slack not lowered); nothing below needs [Rk]. *)
Definition RO (s s' : State) : Prop :=
  G s -> G s' /\ esc s <= esc s' /\ orders s' = orders s.
Definition Rk (k v : Z) (s s' : State) : Prop :=
  G s -> G s' /\ slack s <= slack s' /\ (v <= owes_at s k -> v <= owes_at s' k).
Definition RE (s s' : State) : Prop := G s -> G s' /\ slack s <= slack s'.

Global Instance RO_preorder : PreOrder RO.
Proof.
  split; [intros s Hg; split; [exact Hg|split; [lia|reflexivity]]|].
  intros a b c H1 H2 Hg. destruct (H1 Hg) as (Gb & E1 & O1). destruct (H2 Gb) as (Gc & E2 & O2).
  split; [exact Gc|]. split; [lia|]. congruence.
Qed.
Global Instance Rk_preorder k v : PreOrder (Rk k v).
Proof.
  split; [intros s Hg; split; [exact Hg|split; [lia|auto]]|].
  intros a b c H1 H2 Hg. destruct (H1 Hg) as (Gb & E1 & O1). destruct (H2 Gb) as (Gc & E2 & O2).
  split; [exact Gc|]. split; [lia|auto].
Qed.
Global Instance RE_preorder : PreOrder RE.
Proof.
  split; [intros s Hg; split; [exact Hg|lia]|].
  intros a b c H1 H2 Hg. destruct (H1 Hg) as (Gb & E1). destruct (H2 Gb) as (Gc & E2). split; [exact Gc|lia].
Qed.

Lemma owes_sum_eq s s' : (forall k, owes_at s' k = owes_at s k) ->
  sum_map order_owes (orders s') = sum_map order_owes (orders s).
Proof. intros H. apply sum_map_ext_key. exact H. Qed.

Lemma RO_RE s s' : RO s s' -> RE s s'.
Proof. intros H Hg. destruct (H Hg) as (Hg' & He & Ho). split; [exact Hg'|]. unfold slack. rewrite Ho. lia. Qed.
Lemma RE_Rk0 k s s' : RE s s' -> Rk k 0 s s'.
Proof.
  intros H Hg. destruct (H Hg) as (Hg' & He). split; [exact Hg'|]. split; [exact He|].
  intros _. apply owes_at_nonneg, Hg'.
Qed.

Lemma mok_RO_Rk {A} k v (m : M A) : mok RO true m -> mok (Rk k v) true m.
Proof.
  apply mok_weaken; [|auto]. intros s s' H Hg. destruct (H Hg) as (Hg' & He & Ho).
  split; [exact Hg'|]. unfold slack, owes_at. rewrite Ho. split; [lia|auto].
Qed.
Lemma mok_RO_RE {A} (m : M A) : mok RO true m -> mok RE true m.
Proof. apply mok_weaken; [apply RO_RE|auto]. Qed.
Lemma mok_Rk_RE {A} k v (m : M A) : mok (Rk k v) true m -> mok RE true m.
Proof. apply mok_weaken; [|auto]. intros s s' H Hg. destruct (H Hg) as (Hg' & He & _). auto. Qed.

Lemma RO_frame s s' :
  orders s' = orders s -> did s' = did s -> esc s <= esc s' ->
  (pledges s !! ESC = None -> pledges s' !! ESC = None) -> RO s s'.
Proof.
  intros Eo Ed Eb Ep (Ha & Hs & Hp & Hn).
  split; [|split; [exact Eb|exact Eo]].
  split; [intros k o; rewrite Eo; apply Ha|]. split; [intros k o; rewrite Eo; apply Hs|].
  split; [intros x a; unfold pay_addr; rewrite Ed; apply Hp|]. apply Ep, Hn.
Qed.

Lemma RO_move f t a s : f <> ESC -> 0 <= a -> RO s (move f t a s).
Proof.
  intros Hf Ha. apply RO_frame; try reflexivity; [|auto]. unfold esc.
  destruct (decide (t = ESC)) as [->|Ht]; [rewrite Money.move_to by exact Hf|rewrite Money.move_bal_other by congruence]; lia.
Qed.

(** * Handlers that leave the order table alone *)
Create HintDb esc discriminated.

(* [ro_side]: [RO s (g s)] for a [modify g] that leaves the order table, the registry and the balances
   alone and, if it writes a pledge, writes it at another key than the escrow's ([ro_pl]) *)
Ltac ro_pl :=
  let H := fresh "H" in
  intros H; first [ exact H | cbn; rewrite lookup_insert_ne by congruence; exact H ].
Ltac ro_frame :=
  apply RO_frame; [reflexivity | reflexivity | first [apply Z.le_refl | cbn; apply Z.le_refl] | ro_pl].
Ltac ro_side :=
  lazymatch goal with
  | |- RO _ _ => first [ reflexivity | ro_frame | repeat case_match; first [reflexivity | ro_frame] ]
  | |- RE _ _ => apply RO_RE; ro_side
  end.

Ltac ro_step := mok_walk1 ltac:(try ro_side) ltac:(auto with esc).
Ltac ro_tac := repeat ro_step.

Global Hint Extern 1 (macc _ <> macc _) => discriminate : esc.
(* [mok RE] of a callee: by its own [_re] lemma where it has one (the [Hint Resolve ... : esc] after
   [renew_one_re], [migrate_one_re], [handle_expired_shard_re], [handle_timeout_order_re]), else from its
   [_ro] lemma *)
Global Hint Extern 6 (mok RE _ _) => apply mok_RO_RE : esc.

(* a handler that fails at once unless [key] has a pledge: the key is then not the escrow account *)
Lemma mok_RO_key {A} (m : M A) key :
  (key <> ESC -> mok RO true m) ->
  (forall s, pledges s !! key = None -> match m s with Ok _ s' | Err _ s' => RO s s' | _ => True end) ->
  mok RO true m.
Proof.
  intros H1 H2. destruct (decide (key = ESC)) as [->|Hne]; [|auto]. intros s.
  destruct (pledges s !! ESC) eqn:E.
  - assert (Hv : forall s', RO s s') by (intros s' (_ & _ & _ & Hn); unfold no_escrow_pledge in Hn; congruence).
    destruct (m s); auto.
  - specialize (H2 s E). destruct (m s); auto.
Qed.

Section ROPass.
  Context (cx : Ctx).
  Local Notation R := RO.
  Local Notation h := true.

  Lemma send_strict_ro f t a : f <> ESC -> mok R h (send_strict f t a).
  Proof. intros Hf. apply mok_send_strict; [exact _|]. intros s Ha _. apply RO_move; [exact Hf|lia]. Qed.
  Hint Resolve send_strict_ro : esc.
  Lemma send_lenient_ro f t a : f <> ESC -> mok R h (send_lenient f t a).
  Proof. intros Hf. apply mok_send_lenient; [exact _|]. intros s Ha _. apply RO_move; [exact Hf|lia]. Qed.
  Hint Resolve send_lenient_ro : esc.
  Lemma coin_sub_ro a b : mok R h (coin_sub a b).
  Proof. unfold coin_sub. ro_tac. Qed.
  Hint Resolve coin_sub_ro : esc.
  Lemma mint_ro m a : macc m <> ESC -> mok R h (mint m a).
  Proof.
    intros Hm s. unfold mint. destruct (a <=? 0); [reflexivity|].
    apply RO_frame; try reflexivity; [|auto].
    unfold esc, balance. cbn. rewrite lookup_insert_ne by exact Hm. apply Z.le_refl.
  Qed.
  Hint Resolve mint_ro : esc.

  Lemma reward_age_ro p : mok R h (reward_age p).
  Proof. unfold reward_age. ro_tac. Qed.
  Hint Resolve reward_age_ro : esc.
  Lemma begin_block_ro : mok R h (begin_block cx).
  Proof. unfold begin_block. ro_tac. Qed.
  Lemma end_block_node_ro : mok R h (end_block_node cx).
  Proof. unfold end_block_node, do_penalty. ro_tac. Qed.
  Lemma node_create_ro c : mok R h (node_create cx c).
  Proof. unfold node_create. ro_tac. Qed.
  Lemma node_reset_ro m : mok R h (node_reset cx m).
  Proof. unfold node_reset. ro_tac. Qed.
  Lemma add_vstorage_ro c sz : c <> ESC -> mok R h (add_vstorage c sz).
  Proof. intros Hc. unfold add_vstorage. ro_tac. Qed.
  Lemma remove_vstorage_ro c sz : mok R h (remove_vstorage c sz).
  Proof.
    apply (mok_RO_key _ c).
    - intros Hc. unfold remove_vstorage. ro_tac.
    - intros s E. unfold remove_vstorage, bind, get. cbv beta. rewrite E.
      destruct (nodes s !! c), (pool s); cbn; reflexivity.
  Qed.
  Lemma repay_debt_ro sp rw : mok R h (repay_debt sp rw).
  Proof. unfold repay_debt. ro_tac. Qed.
  Hint Resolve repay_debt_ro : esc.
  Lemma shard_pledge_ro id sh price : mok R h (shard_pledge id sh price).
  Proof.
    apply (mok_RO_key _ (sh_sp sh)).
    - intros Hc. unfold shard_pledge. ro_tac.
    - intros s E. unfold shard_pledge, bind, get. cbv beta. rewrite E. cbn. reflexivity.
  Qed.
  Hint Resolve shard_pledge_ro : esc.
  Lemma shard_release_ro sp sh : mok R h (shard_release sp sh).
  Proof.
    apply (mok_RO_key _ sp).
    - intros Hc. unfold shard_release. ro_tac.
    - intros s E. unfold shard_release, bind, get. cbv beta. rewrite E. cbn. reflexivity.
  Qed.
  Hint Resolve shard_release_ro : esc.
  Lemma market_claim_ro sp : mok R h (market_claim cx sp).
  Proof. unfold market_claim. ro_tac. Qed.
  Hint Resolve market_claim_ro : esc.
  Lemma claim_reward_ro c : mok R h (claim_reward cx c).
  Proof.
    apply (mok_RO_key _ c).
    - intros Hc. unfold claim_reward. ro_tac.
    - intros s E. unfold claim_reward, bind, get. cbv beta. rewrite E. cbn. reflexivity.
  Qed.
  Lemma increase_reputation_ro n v : mok R h (increase_reputation n v).
  Proof. unfold increase_reputation. ro_tac. Qed.
  Hint Resolve increase_reputation_ro : esc.
  Lemma random_sp_m_ro count ignore size : mok R h (random_sp_m cx count ignore size).
  Proof. apply mok_random_sp_m; try exact _; [right; reflexivity|intros s r; ro_side]. Qed.
  Hint Resolve random_sp_m_ro : esc.

  Lemma send_to_did_balances_ro md d amt : mok R h (send_to_did_balances md d amt).
  Proof. apply mok_send_to_did_balances, _. Qed.
  Hint Resolve send_to_did_balances_ro : esc.
  Lemma worker_release_ro o sh : mok R h (worker_release cx o sh).
  Proof. unfold worker_release. ro_tac. Qed.
  Hint Resolve worker_release_ro : esc.
  Lemma worker_append_ro o sh : mok R h (worker_append cx o sh).
  Proof. unfold worker_append. ro_tac. Qed.
  Hint Resolve worker_append_ro : esc.
  Lemma market_withdraw_ro oid o : mok R h (market_withdraw cx oid o).
  Proof. unfold market_withdraw. ro_tac. mok_loop; ro_tac. Qed.
  Hint Resolve market_withdraw_ro : esc.
  Lemma append_shard_ro sh : mok R h (append_shard sh).
  Proof. unfold append_shard. ro_tac. Qed.
  Hint Resolve append_shard_ro : esc.
  Lemma new_shard_task_ro oid o p : mok R h (new_shard_task oid o p).
  Proof. unfold new_shard_task. ro_tac. Qed.
  Hint Resolve new_shard_task_ro : esc.
  Lemma gen_shards_ro oid sps : forall o, mok R h (gen_shards oid o sps).
  Proof. induction sps as [|sp sps IH]; intros o; cbn [gen_shards]; ro_tac. Qed.
  Hint Resolve gen_shards_ro : esc.
  Lemma generate_shards_ro oid o sps : mok R h (generate_shards oid o sps).
  Proof. unfold generate_shards. ro_tac. Qed.
  Hint Resolve generate_shards_ro : esc.
  Lemma set_data_expire_ro d a : mok R h (set_data_expire d a).
  Proof. unfold set_data_expire. ro_tac. Qed.
  Hint Resolve set_data_expire_ro : esc.
  Lemma remove_data_expire_ro d a : mok R h (remove_data_expire d a).
  Proof. unfold remove_data_expire. ro_tac. Qed.
  Hint Resolve remove_data_expire_ro : esc.
  Lemma new_meta_ro o d m : mok R h (new_meta cx o d m).
  Proof. unfold new_meta. ro_tac. Qed.
  Hint Resolve new_meta_ro : esc.
  Lemma reset_meta_duration_ro d m : mok R h (reset_meta_duration cx d m).
  Proof. unfold reset_meta_duration. ro_tac. Qed.
  Hint Resolve reset_meta_duration_ro : esc.
  Lemma extend_meta_duration_ro d e : mok R h (extend_meta_duration d e).
  Proof. unfold extend_meta_duration. ro_tac. Qed.
  Hint Resolve extend_meta_duration_ro : esc.
  Lemma delete_meta_ro d : mok R h (delete_meta d).
  Proof. unfold delete_meta. ro_tac. Qed.
  Hint Resolve delete_meta_ro : esc.
  Lemma remove_shards_ro ids : mok R h (remove_shards ids).
  Proof. unfold remove_shards. ro_tac. Qed.
  Hint Resolve remove_shards_ro : esc.
  Lemma update_meta_status_commit_ro oid o : mok R h (update_meta_status_commit cx oid o).
  Proof. unfold update_meta_status_commit. ro_tac. Qed.
  Hint Resolve update_meta_status_commit_ro : esc.
  Lemma rollback_meta_ro d : mok R h (rollback_meta cx d).
  Proof. unfold rollback_meta. ro_tac. Qed.
  Hint Resolve rollback_meta_ro : esc.
  Lemma update_permission_ro ow d ro rw : mok R h (update_permission ow d ro rw).
  Proof. unfold update_permission. ro_tac. Qed.
  Hint Resolve update_permission_ro : esc.
  Lemma end_block_model_ro : mok R h (end_block_model cx).
  Proof. unfold end_block_model. ro_tac. Qed.

  Lemma set_timeout_block_ro oid a : mok R h (set_timeout_block oid a).
  Proof. unfold set_timeout_block. ro_tac. Qed.
  Hint Resolve set_timeout_block_ro : esc.
  Lemma set_expired_shard_block_ro sid a : mok R h (set_expired_shard_block sid a).
  Proof. unfold set_expired_shard_block. ro_tac. Qed.
  Hint Resolve set_expired_shard_block_ro : esc.
  Lemma get_sps_ro o d : mok R h (get_sps cx o d).
  Proof. unfold get_sps. ro_tac. Qed.
  Hint Resolve get_sps_ro : esc.
  Lemma sao_update_permission_ro c p ow d ro rw sg v : mok R h (sao_update_permission cx c p ow d ro rw sg v).
  Proof. unfold sao_update_permission. ro_tac. Qed.
  Lemma set_fault_ro k f : mok R h (set_fault k f).
  Proof. unfold set_fault. ro_tac. Qed.
  Hint Resolve set_fault_ro : esc.
  Lemma sao_report_faults_ro c p fl : mok R h (sao_report_faults cx c p fl).
  Proof. unfold sao_report_faults. ro_tac. Qed.
  Lemma sao_recover_faults_ro c p fl : mok R h (sao_recover_faults cx c p fl).
  Proof. unfold sao_recover_faults. ro_tac. Qed.

  Lemma set_role_ro c r v : mok R h (set_role c r v).
  Proof. unfold set_role. ro_tac. Qed.
  Hint Resolve set_role_ro : esc.
  Lemma verify_super_ro v a b : mok R h (verify_super v a b).
  Proof. unfold verify_super. ro_tac. Qed.
  Hint Resolve verify_super_ro : esc.
End ROPass.

Global Hint Resolve send_strict_ro send_lenient_ro coin_sub_ro mint_ro reward_age_ro repay_debt_ro shard_pledge_ro shard_release_ro
  market_claim_ro increase_reputation_ro random_sp_m_ro send_to_did_balances_ro worker_release_ro worker_append_ro
  market_withdraw_ro append_shard_ro new_shard_task_ro gen_shards_ro generate_shards_ro set_data_expire_ro remove_data_expire_ro
  new_meta_ro reset_meta_duration_ro extend_meta_duration_ro delete_meta_ro remove_shards_ro update_meta_status_commit_ro
  rollback_meta_ro update_permission_ro set_timeout_block_ro set_expired_shard_block_ro get_sps_ro set_fault_ro set_role_ro
  verify_super_ro : esc.

(** * Hoare triples at a state, for the handlers that write the order table *)
Definition ht {A} (m : M A) (s : State) (Q : A -> State -> Prop) (E : State -> Prop) : Prop :=
  match m s with Ok a s' => Q a s' | Err _ s' => E s' | _ => True end.

Lemma ht_bind {A B} (m : M A) (k : A -> M B) s Q1 Q E :
  ht m s Q1 E -> (forall a s1, Q1 a s1 -> ht (k a) s1 Q E) -> ht (bind m k) s Q E.
Proof. unfold ht, bind. intros H1 H2. destruct (m s) as [a s1|e s1|e|]; auto. apply H2, H1. Qed.
Lemma ht_ret {A} (a : A) s (Q : A -> State -> Prop) E : Q a s -> ht (ret a) s Q E.
Proof. auto. Qed.
Lemma ht_fail {A} e s (Q : A -> State -> Prop) (E : State -> Prop) : E s -> ht (fail e) s Q E.
Proof. auto. Qed.
Lemma ht_panic {A} e s (Q : A -> State -> Prop) E : ht (panic e) s Q E.
Proof. exact I. Qed.
(* the branches of a test, with its value as a hypothesis: by a rule, as [mok_if] in Frame.v *)
Lemma ht_if {A} (c : bool) (m1 m2 : M A) s Q E :
  (c = true -> ht m1 s Q E) -> (c = false -> ht m2 s Q E) -> ht (if c then m1 else m2) s Q E.
Proof. destruct c; auto. Qed.
Lemma ht_option {A B} (o : option B) (f : B -> M A) (m : M A) s Q E :
  (forall x, o = Some x -> ht (f x) s Q E) -> (o = None -> ht m s Q E) ->
  ht (match o with Some x => f x | None => m end) s Q E.
Proof. destruct o; auto. Qed.
Lemma ht_get {B} (k : State -> M B) s Q E : ht (k s) s Q E -> ht (bind get k) s Q E.
Proof. auto. Qed.
Lemma ht_modify g s (Q : unit -> State -> Prop) E : Q tt (g s) -> ht (modify g) s Q E.
Proof. auto. Qed.
Lemma ht_try {A} (m : M A) s (Q : option A -> State -> Prop) E :
  ht m s (fun a => Q (Some a)) (Q None) -> ht (try_ m) s Q E.
Proof. unfold ht, try_. destruct (m s); auto. Qed.
Lemma ht_conseq {A} (m : M A) s (Q Q' : A -> State -> Prop) (E E' : State -> Prop) :
  ht m s Q E -> (forall a s', Q a s' -> Q' a s') -> (forall s', E s' -> E' s') -> ht m s Q' E'.
Proof. unfold ht. destruct (m s); auto. Qed.
Lemma ht_forM {A} (I : State -> Prop) (l : list A) (f : A -> M unit) :
  (forall a s, I s -> ht (f a) s (fun _ => I) I) -> forall s, I s -> ht (forM l f) s (fun _ => I) I.
Proof.
  intros Hf. induction l as [|x l IH]; intros s Hs; cbn [forM]; [exact Hs|].
  eapply ht_bind; [apply Hf, Hs|]. intros u s1 H1. apply IH, H1.
Qed.
Lemma ht_mok {A} (R : State -> State -> Prop) (I : State -> Prop) (m : M A) s :
  mok R true m -> (forall s s', R s s' -> I s -> I s') -> I s -> ht m s (fun _ => I) I.
Proof. intros Hm Hc Hs. unfold ht. specialize (Hm s). destruct (m s); eauto. Qed.
Lemma mok_ht {A} (R : State -> State -> Prop) (m : M A) :
  (forall s, ht m s (fun _ => R s) (R s)) -> mok R true m.
Proof. intros H s. specialize (H s). unfold ht in H. destruct (m s); auto. Qed.
Lemma ht_RO {A} (m : M A) s0 s : mok RO true m -> RO s0 s -> ht m s (fun _ => RO s0) (RO s0).
Proof. intros Hm Hs. apply (ht_mok RO); [exact Hm| |exact Hs]. intros t t' Ht Ht'. etransitivity; eassumption. Qed.

(* Two ways to show that a handler does not lower the slack.  [P c] (with [PW]) follows the sum itself: for
   handlers in which coins enter or leave the escrow account ([mok_P]).  [U f e] bounds every entry by [f] and
   the balance by [e] separately, and [sum_map_mono] adds the entries up ([U_RE]): for handlers and loops that
   only rewrite entries, each owing no more than before ([mok_U]). *)
Definition P (c : Z) (s : State) : Prop := G s /\ c <= slack s.
(* [PW c1 c2 k]: the slack is at least [c1], and at least [c2] when what entry [k] owes is not counted *)
Definition PW (c1 c2 k : Z) (s : State) : Prop := G s /\ c1 <= slack s /\ c2 <= slack s + owes_at s k.
Definition U (f : Z -> Z) (e : Z) (s : State) : Prop := G s /\ e <= esc s /\ forall k, owes_at s k <= f k.

Lemma P_mono c c' s : c' <= c -> P c s -> P c' s.
Proof. intros H (Hg & Hs). split; [exact Hg|lia]. Qed.
Lemma P_RE s s' : P (slack s) s' -> RE s s'.
Proof. intros (Hg & Hs) _. auto. Qed.
Lemma P_init s : G s -> P (slack s) s.
Proof. intros Hg. split; [exact Hg|lia]. Qed.
Lemma P_RE_closed c s s' : RE s s' -> P c s -> P c s'.
Proof. intros H (Hg & Hs). destruct (H Hg) as (Hg' & Hs'). split; [exact Hg'|lia]. Qed.
Lemma P_RO_closed c s s' : RO s s' -> P c s -> P c s'.
Proof. intros H. apply P_RE_closed, RO_RE, H. Qed.
Lemma PW_RO_closed c1 c2 k s s' : RO s s' -> PW c1 c2 k s -> PW c1 c2 k s'.
Proof.
  intros H (Hg & Hs & Hw). destruct (RO_RE _ _ H Hg) as (Hg' & Hs'). destruct (H Hg) as (_ & _ & Ho).
  split; [exact Hg'|]. unfold owes_at. rewrite Ho. fold (owes_at s k). lia.
Qed.
Lemma PW_P c1 c2 k s : PW c1 c2 k s -> P c1 s.
Proof. intros (Hg & Hs & _). split; assumption. Qed.
Lemma P_PW c k s : P c s -> PW c (c + owes_at s k) k s.
Proof. intros (Hg & Hs). split; [exact Hg|lia]. Qed.
(* for any key: a caller that singles out no entry passes 0 *)
Lemma P_PW0 c k s : P c s -> PW c c k s.
Proof. intros (Hg & Hs). pose proof (owes_at_nonneg s k (proj1 Hg)). split; [exact Hg|lia]. Qed.
Lemma PW_mono c1 c2 d1 d2 k s : d1 <= c1 -> d2 <= c2 -> PW c1 c2 k s -> PW d1 d2 k s.
Proof. intros H1 H2 (Hg & Hs & Hw). split; [exact Hg|lia]. Qed.
Lemma U_RO_closed f e s s' : RO s s' -> U f e s -> U f e s'.
Proof.
  intros H (Hg & He & Ho). destruct (H Hg) as (Hg' & He' & Ho').
  split; [exact Hg'|]. split; [lia|]. intros k. unfold owes_at. rewrite Ho'. apply Ho.
Qed.
Lemma U_init s : G s -> U (owes_at s) (esc s) s.
Proof. intros Hg. split; [exact Hg|]. split; lia. Qed.

Lemma U_RE s s' : G s -> U (owes_at s) (esc s) s' -> RE s s'.
Proof.
  intros Hg (Hg' & He & Ho) _. split; [exact Hg'|]. unfold slack.
  enough (sum_map order_owes (orders s') <= sum_map order_owes (orders s)) by lia.
  apply sum_map_mono. exact Ho.
Qed.

Lemma G_orders s (om : gmap Z Order) :
  G s -> (forall k o, om !! k = Some o -> 0 <= o_amount o /\ status_ok o) -> G (s <| orders := om |>).
Proof.
  intros (Ha & Hs & Hp & Hn) H. split; [intros k o Hk; apply (H k o Hk)|]. split; [intros k o Hk; apply (H k o Hk)|].
  split; [exact Hp|exact Hn].
Qed.
Lemma G_insert s k o : G s -> 0 <= o_amount o -> status_ok o -> G (s <| orders ::= <[k := o]> |>).
Proof.
  intros Hg H1 H2. apply G_orders; [exact Hg|]. intros j x Hj.
  destruct (decide (j = k)) as [->|Hne].
  - rewrite lookup_insert in Hj. injection Hj as <-. auto.
  - rewrite lookup_insert_ne in Hj by congruence. destruct Hg as (Ha & Hs & _). split; [apply (Ha j x Hj)|apply (Hs j x Hj)].
Qed.
Lemma G_delete s k : G s -> G (s <| orders ::= delete k |>).
Proof.
  intros Hg. apply G_orders; [exact Hg|]. intros j x Hj. apply lookup_delete_Some in Hj as (_ & Hj).
  destruct Hg as (Ha & Hs & _). split; [apply (Ha j x Hj)|apply (Hs j x Hj)].
Qed.
Lemma G_order s k o : G s -> orders s !! k = Some o -> 0 <= o_amount o /\ status_ok o.
Proof. intros (Ha & Hs & _) H. split; [apply (Ha k o H)|apply (Hs k o H)]. Qed.

Lemma slack_insert s k o :
  slack (s <| orders ::= <[k := o]> |>) = slack s + owes_at s k - order_owes o.
Proof. unfold slack, owes_at, at_key, esc, balance. cbn. rewrite sum_map_insert. destruct (orders s !! k); lia. Qed.
Lemma slack_delete s k : slack (s <| orders ::= delete k |>) = slack s + owes_at s k.
Proof. unfold slack, owes_at, at_key, esc, balance. cbn. rewrite sum_map_delete. destruct (orders s !! k); lia. Qed.
Lemma owes_at_insert s k o j :
  owes_at (s <| orders ::= <[k := o]> |>) j = if decide (j = k) then order_owes o else owes_at s j.
Proof.
  unfold owes_at, at_key. cbn. destruct (decide (j = k)) as [->|Hne]; [rewrite lookup_insert; reflexivity|].
  rewrite lookup_insert_ne by congruence. reflexivity.
Qed.
Lemma owes_at_delete s k j :
  owes_at (s <| orders ::= delete k |>) j = if decide (j = k) then 0 else owes_at s j.
Proof.
  unfold owes_at, at_key. cbn. destruct (decide (j = k)) as [->|Hne]; [rewrite lookup_delete; reflexivity|].
  rewrite lookup_delete_ne by congruence. reflexivity.
Qed.
Lemma owes_at_lookup s k o : orders s !! k = Some o -> owes_at s k = order_owes o.
Proof. unfold owes_at, at_key. intros ->. reflexivity. Qed.

Lemma U_insert f e s k o : U f e s -> 0 <= o_amount o -> status_ok o -> order_owes o <= f k ->
  U f e (s <| orders ::= <[k := o]> |>).
Proof.
  intros (Hg & He & Ho) H1 H2 H3. split; [apply G_insert; assumption|]. split; [exact He|].
  intros j. rewrite owes_at_insert. destruct (decide (j = k)) as [->|_]; [exact H3|apply Ho].
Qed.
Lemma U_delete f e s k : U f e s -> 0 <= f k -> U f e (s <| orders ::= delete k |>).
Proof.
  intros (Hg & He & Ho) H0. split; [apply G_delete, Hg|]. split; [exact He|].
  intros j. rewrite owes_at_delete. destruct (decide (j = k)) as [->|_]; [exact H0|apply Ho].
Qed.
Lemma U_lookup f e s k o : U f e s -> orders s !! k = Some o -> order_owes o <= f k /\ 0 <= o_amount o /\ status_ok o.
Proof.
  intros (Hg & _ & Ho) H. specialize (Ho k). rewrite (owes_at_lookup _ _ _ H) in Ho.
  split; [exact Ho|apply (G_order s k o Hg H)].
Qed.
Lemma U_same f e s k o o' : U f e s -> orders s !! k = Some o -> same_owes o' o ->
  forall s1, U f e s1 -> U f e (s1 <| orders ::= <[k := o']> |>).
Proof.
  intros HU Eo Es s1 H1. destruct (U_lookup _ _ _ _ _ HU Eo) as (Hle & Hamt & Hok).
  apply U_insert; [exact H1|destruct Es as (_ & _ & ->); exact Hamt|eapply status_ok_same; eassumption|
                   rewrite (order_owes_same o o' Es); exact Hle].
Qed.

Lemma PW_delete c1 c2 k s j : PW c1 c2 k s -> PW c1 c2 k (s <| orders ::= delete j |>).
Proof.
  intros (Hg & Hs & Hw). pose proof (owes_at_nonneg s j (proj1 Hg)). pose proof (owes_at_nonneg s k (proj1 Hg)).
  split; [apply G_delete, Hg|]. rewrite slack_delete, owes_at_delete. destruct (decide (k = j)) as [->|_]; lia.
Qed.
Lemma PW_delete_key c1 c2 k s : PW c1 c2 k s -> P c2 (s <| orders ::= delete k |>).
Proof. intros (Hg & _ & Hw). split; [apply G_delete, Hg|]. rewrite slack_delete. exact Hw. Qed.
Lemma P_delete c s k : P c s -> P c (s <| orders ::= delete k |>).
Proof. intros H. apply (PW_P c c k), PW_delete, P_PW0, H. Qed.
Lemma PW_write c1 c2 k s o : PW c1 c2 k s -> 0 <= o_amount o -> status_ok o ->
  PW (c2 - order_owes o) c2 k (s <| orders ::= <[k := o]> |>).
Proof.
  intros (Hg & Hs & Hw) H1 H2. split; [apply G_insert; assumption|].
  rewrite slack_insert, owes_at_insert, decide_True by reflexivity. lia.
Qed.
Lemma P_insert_zero c s k o : P c s -> 0 <= o_amount o -> status_ok o -> order_owes o = 0 ->
  P c (s <| orders ::= <[k := o]> |>).
Proof.
  intros HP H1 H2 H3. pose proof (PW_P _ _ _ _ (PW_write _ _ k _ o (P_PW0 c k s HP) H1 H2)) as H. rewrite H3 in H.
  eapply P_mono; [|exact H]. lia.
Qed.

Lemma ht_bind_E {A B} (m : M A) (k : A -> M B) s Q1 (E1 : State -> Prop) Q (E : State -> Prop) :
  ht m s Q1 E1 -> (forall s', E1 s' -> E s') -> (forall a s1, Q1 a s1 -> ht (k a) s1 Q E) -> ht (bind m k) s Q E.
Proof. intros H1 H2 H3. eapply ht_bind; [eapply ht_conseq; [exact H1|intros a s' H; exact H|exact H2]|exact H3]. Qed.
(* [ht_bind_E] with one assertion [I] in all places, so that [eapply (_ I)] can name it *)
Lemma ht_bind_inv {A B} (I : State -> Prop) (m : M A) (k : A -> M B) s Q (E : State -> Prop) :
  ht m s (fun _ => I) I -> (forall s', I s' -> E s') -> (forall a s1, I s1 -> ht (k a) s1 Q E) -> ht (bind m k) s Q E.
Proof. apply ht_bind_E. Qed.

(* [I s' -> E s'] (or [I s' -> Q a s']) where the wanted assertion is the carried one, [True], a [P] with a
   smaller bound, or the [P] of a [PW] *)
Ltac ht_weak :=
  first [ intros ? ? ; assumption
        | intros; exact Logic.I
        | let H := fresh in intros ? H; eapply P_mono; [|exact H]; lia
        | let H := fresh in intros ? ? H; eapply P_mono; [|exact H]; lia
        | intros ? ? ? ; assumption
        | intros; eapply PW_P; eassumption ].
Ltac ro_closed := first [exact (P_RO_closed _) | exact (PW_RO_closed _ _ _) | exact (U_RO_closed _ _)].
Ltac ht_inv s k :=
  match goal with
  | H : P _ s |- _ => k H
  | H : PW _ _ _ s |- _ => k H
  | H : U _ _ s |- _ => k H
  end.
(* over a call that leaves the order table alone *)
Ltac ht_call :=
  lazymatch goal with
  | |- ht (bind ?m ?k) ?s ?Q ?E =>
      ht_inv s ltac:(fun H =>
        match type of H with ?I s =>
          refine (ht_bind_inv I m k s Q E _ _ _); [eapply (ht_mok RO); [solve [ro_tac]|ro_closed|exact H]|ht_weak|cbv beta; intros ? ? ?] end)
  | |- ht _ ?s _ _ =>
      ht_inv s ltac:(fun H =>
        match type of H with ?I s =>
          eapply (ht_conseq _ _ (fun _ => I) _ I); [eapply (ht_mok RO); [solve [ro_tac]|ro_closed|exact H]|ht_weak|ht_weak] end)
  end.
Ltac ht_fails :=
  apply ht_fail; first [assumption | exact Logic.I | (eapply P_mono; [|eassumption]; lia) | (eapply PW_P; eassumption)].
(* the rules get their arguments from the goal, as in [mok_walk1] of Frame.v *)
Ltac ht_if :=
  lazymatch goal with |- ht (if ?c then ?m1 else ?m2) ?s ?Q ?E => refine (ht_if c m1 m2 s Q E _ _) end.
Ltac ht_option :=
  lazymatch goal with
  | |- ht (match ?o with Some x => @?f x | None => ?m end) ?s ?Q ?E => refine (ht_option o f m s Q E _ _)
  end.
Ltac ht_case :=
  lazymatch goal with
  | |- ht (match ?x with _ => _ end) _ _ _ =>
      first [ht_if; intros ? | ht_option; [intros ? ?|intros ?] | destruct x eqn:?]
  | |- ht (bind (match ?x with _ => _ end) _) _ _ _ => destruct x eqn:?
  end.
(* a local loop [(fix go l a := ...) l0 a0] that keeps [I], also when it fails, and returns with [Q a0]:
   shown for all [l] and [a], by induction on [l] *)
Tactic Notation "ht_loop" uconstr(I) "with" uconstr(Q) :=
  lazymatch goal with
  | |- ht (?F ?l ?a) _ _ _ =>
      let HF := fresh "HF" in
      enough (HF : forall l' a' s', I s' -> ht (F l' a') s' (Q a') I) by (apply HF; assumption)
  end.
Tactic Notation "ht_loop" uconstr(I) := ht_loop I with (fun _ _ => I).

Lemma owes_at_move f t a s k : owes_at (move f t a s) k = owes_at s k.
Proof. reflexivity. Qed.
Lemma PW_move_out c1 c2 k s t a : 0 <= a -> PW c1 c2 k s -> PW (c1 - a) (c2 - a) k (move ESC t a s).
Proof.
  intros H0 (Hg & Hs & Hw). split; [exact Hg|]. rewrite owes_at_move.
  unfold slack in *. change (orders (move ESC t a s)) with (orders s).
  enough (esc s - a <= esc (move ESC t a s)) by lia. unfold esc.
  destruct (decide (t = ESC)) as [->|Hne]; [rewrite Money.move_self; lia|].
  rewrite Money.move_from by congruence. lia.
Qed.
Lemma PW_move_in c1 c2 k s f a : f <> ESC -> PW c1 c2 k s -> PW (c1 + a) (c2 + a) k (move f ESC a s).
Proof.
  intros Hf (Hg & Hs & Hw). split; [exact Hg|]. rewrite owes_at_move.
  unfold slack, esc in *. change (orders (move f ESC a s)) with (orders s).
  rewrite Money.move_to by exact Hf. lia.
Qed.

Lemma send_out_ht c1 c2 k s t a :
  PW c1 c2 k s -> ht (send_strict ESC t a) s (fun _ => PW (c1 - a) (c2 - a) k) (PW c1 c2 k).
Proof.
  intros HP. unfold ht, send_strict. destruct (a <=? 0) eqn:E1; [exact HP|].
  destruct (balance s ESC <? a); [exact HP|]. apply PW_move_out; [lia|exact HP].
Qed.

Lemma market_deposit_ht c1 c2 k s o :
  PW c1 c2 k s -> ht (market_deposit o) s (fun _ => PW (c1 - o_amount o) (c2 - o_amount o) k) (PW c1 c2 k).
Proof. intros HP. unfold market_deposit. destruct (o_amount o =? 0); [apply ht_fail, HP|apply send_out_ht, HP]. Qed.

(* [s0] is the state in which the order was looked up *)
Lemma cancel_order_ht cx oid o c s0 s :
  P c s0 -> orders s0 !! oid = Some o -> o_status o <> OrderCompleted -> RO s0 s ->
  ht (cancel_order cx oid) s (fun _ => P c) (P c).
Proof.
  intros HP0 Eo0 Hopen Hs. pose proof (P_RO_closed _ _ _ Hs HP0) as HP.
  assert (Eo : orders s !! oid = Some o) by (destruct (Hs (proj1 HP0)) as (_ & _ & ->); exact Eo0).
  unfold ht. destruct (cancel_order cx oid s) as [[] s'|e s'|e|] eqn:E; auto.
  - apply (Money.cancel_order_inv _ _ _ _ o) in E; [|exact Eo].
      destruct E as (payer & s2 & Hp & Hpos & Hle & Hrb & ->).
      pose proof (rollback_meta_ro cx (o_data o) (move ESC payer (o_amount o) s)) as Hro. rewrite Hrb in Hro.
      destruct (G_order s oid o (proj1 HP) Eo) as (Hamt & Hst).
      pose proof (P_PW c oid s HP) as HW.
      rewrite (owes_at_lookup _ _ _ Eo), (order_owes_open o Hst Hopen) in HW.
      apply (PW_move_out _ _ _ _ payer (o_amount o) Hamt) in HW.
      eapply P_mono; [|exact (PW_delete_key _ _ _ _ (PW_RO_closed _ _ _ _ _ Hro HW))]. lia.
  - apply Money.cancel_order_err in E as (_ & ->). exact HP.
Qed.

Lemma order_terminate_ht oid refund c1 c2 k s :
  PW c1 c2 k s -> 0 <= refund ->
  ht (order_terminate oid refund) s (fun _ => PW (c1 - refund) (c2 - refund) k) (PW c1 c2 k).
Proof.
  intros HP Hr. unfold order_terminate. apply ht_get.
  ht_option; [intros o _|intros _; apply ht_fail, HP].
  ht_if; intros _; [apply ht_fail, HP|].
  eapply ht_bind with (Q1 := fun _ => PW (c1 - refund) (c2 - refund) k).
  - assert (HPd : PW (c1 - refund) (c2 - refund) k s) by (eapply PW_mono; [| |exact HP]; lia).
    destruct (pay_addr s (o_owner o)) as [payer|].
    + ht_if; intros _; [apply ht_ret, HPd|].
      apply send_out_ht, HP.
    + unfold ht, send_to_did_balances. destruct (refund =? 0); [exact HPd|exact Logic.I].
  - intros [] s1 H1. apply ht_modify, PW_delete, H1.
Qed.

Lemma dec_trunc_nonneg x : 0 <= x -> 0 <= dec_trunc x.
Proof. intros H. unfold dec_trunc. apply Z.quot_pos; [exact H|unfold P18; lia]. Qed.

Lemma market_withdraw_ht cx oid o c1 c2 k s :
  PW c1 c2 k s -> ht (market_withdraw cx oid o) s (fun coin s' => PW (c1 + coin) (c2 + coin) k s' /\ 0 <= coin) (PW c1 c2 k).
Proof.
  intros HP. unfold market_withdraw. ht_if; intros _; [apply ht_fail, HP|]. cbv zeta.
  ht_loop (PW c1 c2 k) with (fun _ coin s' => PW (c1 + coin) (c2 + coin) k s' /\ 0 <= coin).
  clear s HP. intros l. induction l as [|id l IH]; intros a s HP; fix_unfold.
  - ht_if; intros Ea; [exact Logic.I|]. apply Z.ltb_ge in Ea. pose proof (dec_trunc_nonneg a Ea) as Hc.
    eapply ht_bind with (Q1 := fun _ s1 => PW (c1 + dec_trunc a) (c2 + dec_trunc a) k s1).
    + destruct (dec_trunc a =? 0) eqn:E0; [apply Z.eqb_eq in E0; apply ht_ret; rewrite E0; eapply PW_mono; [| |exact HP]; lia|].
      unfold ht, send_strict. destruct (_ <=? 0); [exact HP|]. destruct (_ <? _); [exact HP|].
      apply PW_move_in; [discriminate|exact HP].
    + intros [] s1 H1. apply ht_ret. auto.
  - apply ht_get. ht_option; [intros sh _|intros _; apply IH, HP].
    ht_if; intros _; [apply IH, HP|]. cbv zeta.
    destruct (_ && _).
    + eapply ht_bind_inv with (I := PW c1 c2 k);
        [eapply (ht_mok RO); [solve [auto with esc]|ro_closed|exact HP]|auto|]. intros [] s1 H1. apply IH, H1.
    + ht_if; intros _; [apply IH, HP|]. destruct (_ && _); apply IH, HP.
Qed.

Lemma model_terminate_order_ht cx oid o c1 c2 k s :
  PW c1 c2 k s -> ht (model_terminate_order cx oid o) s (fun _ => PW c1 c2 k) (PW c1 c2 k).
Proof.
  intros HP. unfold model_terminate_order.
  eapply ht_bind; [apply market_withdraw_ht, HP|]. intros coin s1 (H1 & Hc).
  assert (Hw : forall s', PW (c1 + coin) (c2 + coin) k s' -> PW c1 c2 k s') by (intros s'; apply PW_mono; lia).
  eapply ht_bind_inv with (I := PW (c1 + coin) (c2 + coin) k); [|exact Hw|].
  - apply ht_forM; [|exact H1]. intros id s2 H2. apply ht_get.
    ht_option; [intros sh _|intros _; apply ht_ret, H2].
    destruct (_ && _); [|apply ht_ret, H2].
    eapply (ht_mok RO); [solve [auto with esc]|ro_closed|exact H2].
  - intros [] s2 H2. eapply ht_conseq; [apply order_terminate_ht; [exact H2|exact Hc]| |exact Hw].
    intros [] s'. apply PW_mono; lia.
Qed.

Lemma ht_guard {A} (m : M A) s : (G s -> ht m s (fun _ => RE s) (RE s)) -> ht m s (fun _ => RE s) (RE s).
Proof. intros H. unfold ht in *. destruct (m s); auto; intros Hg; apply H; exact Hg. Qed.
Lemma ht_P_branch {A} (m : M A) s s0 : ht m s (fun _ => P (slack s0)) (P (slack s0)) -> ht m s (fun _ => RE s0) (RE s0).
Proof. intros H. eapply ht_conseq; [exact H|intros; apply P_RE; assumption|intros; apply P_RE; assumption]. Qed.
Lemma ht_U_branch {A} (m : M A) s s0 : G s0 ->
  ht m s (fun _ => U (owes_at s0) (esc s0)) (U (owes_at s0) (esc s0)) -> ht m s (fun _ => RE s0) (RE s0).
Proof. intros Hg H. eapply ht_conseq; [exact H|intros; apply U_RE; assumption|intros; apply U_RE; assumption]. Qed.

Lemma mok_P {A} (m : M A) :
  (forall s, P (slack s) s -> ht m s (fun _ => P (slack s)) (P (slack s))) -> mok RE true m.
Proof. intros H. apply mok_ht. intros s. apply ht_guard. intros Hg. apply ht_P_branch, H, P_init, Hg. Qed.
Lemma mok_U {A} (m : M A) :
  (forall s, U (owes_at s) (esc s) s -> ht m s (fun _ => U (owes_at s) (esc s)) (U (owes_at s) (esc s))) -> mok RE true m.
Proof. intros H. apply mok_ht. intros s. apply ht_guard. intros Hg. apply ht_U_branch, H, U_init, Hg; exact Hg. Qed.

Lemma force_push_loop_ht cx lc c1 c2 k : forall ro acc s,
  PW c1 c2 k s -> ht (force_push_loop cx ro lc acc) s (fun _ => PW c1 c2 k) (PW c1 c2 k).
Proof.
  induction ro as [|oid ro IH]; intros acc s HP; cbn [force_push_loop]; [apply ht_ret, HP|].
  apply ht_get. ht_option; [intros o _|intros _; apply ht_fail, HP].
  ht_if; intros _; [apply ht_ret, HP|].
  eapply ht_bind_inv with (I := PW c1 c2 k); [apply model_terminate_order_ht, HP|auto|].
  intros [] s1 H1. apply IH, H1.
Qed.

Lemma update_meta_ht cx oid o c1 c2 k s :
  PW c1 c2 k s -> ht (update_meta cx oid o) s (fun _ => PW c1 c2 k) (PW c1 c2 k).
Proof.
  intros HP. unfold update_meta. apply ht_get. ht_if; intros _; [apply ht_fail, HP|].
  ht_option; [intros m _|intros _; apply ht_fail, HP]. ht_if; intros _; [apply ht_fail, HP|].
  eapply ht_bind_inv with (I := PW c1 c2 k); [|auto|intros m' s1 H1; ht_call].
  ht_if; intros _; [apply ht_ret, HP|]. destruct (o_op o =? 2).
  - ht_option; [intros lastv _|intros _; exact Logic.I].
    eapply ht_bind_inv with (I := PW c1 c2 k); [apply force_push_loop_ht, HP|auto|].
    intros [rev_left sids] s1 H1. cbv beta iota zeta. ht_call. ht_call.
  - destruct (o_op o =? 3); [apply ht_ret, HP|apply ht_fail, HP].
Qed.

Lemma sao_terminate_re cx c p ow d sg : mok RE true (sao_terminate cx c p ow d sg).
Proof.
  apply mok_P. intros s HP. apply (P_PW0 _ 0) in HP.
  unfold sao_terminate. apply ht_get. ht_if; intros _; [ht_fails|].
  ht_option; [intros sigdid _|intros _; ht_fails].
  ht_option; [intros meta _|intros _; ht_fails]. ht_if; intros _; [ht_fails|].
  eapply ht_bind_inv with (I := PW (slack s) (slack s) 0); [|ht_weak|].
  - ht_loop (PW (slack s) (slack s) 0).
    intros l. induction l as [|oid l IH]; intros a s1 H1; fix_unfold; [apply ht_ret, H1|].
    apply ht_get. ht_option; [intros o _|intros _; apply IH, H1].
    eapply ht_bind_inv with (I := PW (slack s) (slack s) 0); [apply model_terminate_order_ht, H1|auto|].
    intros [] s2 H2. apply IH, H2.
  - intros sids s1 H1. ht_call. ht_call.
Qed.

Lemma ht_val {A} (I : State -> Prop) (V : A -> Prop) (m : M A) s :
  ht m s (fun _ => I) I -> ht m s (fun a _ => V a) (fun _ => True) -> ht m s (fun a s' => I s' /\ V a) I.
Proof. unfold ht. destruct (m s); auto. Qed.

Lemma gen_shards_val oid sps : forall o s,
  ht (gen_shards oid o sps) s (fun o' _ => same_owes o' o) (fun _ => True).
Proof.
  induction sps as [|sp sps IH]; intros o s; cbn [gen_shards]; [apply ht_ret; repeat split|].
  eapply ht_bind with (Q1 := fun _ _ => True); [unfold ht; destruct (new_shard_task oid o sp s); auto|].
  intros id s1 _. eapply ht_conseq; [apply IH|cbn; intros o' _ H; exact H|auto].
Qed.
Lemma generate_shards_val oid o sps s :
  ht (generate_shards oid o sps) s
     (fun o' _ => o_op o' = o_op o /\ o_amount o' = o_amount o /\ (o_status o' = o_status o \/ o_status o' = OrderDataReady))
     (fun _ => True).
Proof.
  unfold generate_shards. destruct sps as [|sp sps]; [apply ht_ret; auto|].
  eapply ht_bind; [apply gen_shards_val|]. intros o' s1 (H1 & H2 & H3). apply ht_ret. cbn. auto.
Qed.

Lemma open_owes o : o_op o <> 3 -> (o_status o = OrderPending \/ o_status o = OrderDataReady) ->
  order_owes o = o_amount o /\ status_ok o.
Proof. intros H1 H2. assert (Hs : status_ok o) by (right; auto). split; [|exact Hs]. apply order_owes_open; [exact Hs|]. destruct H2 as [-> | ->]; discriminate. Qed.

Lemma new_order_ht cx o sps c s :
  P c s -> o_status o = OrderPending -> o_op o <> 3 -> 0 <= o_amount o ->
  ht (new_order cx o sps) s (fun _ => P (c - o_amount o)) (P (c - o_amount o)).
Proof.
  intros HP Hst Hop Ha. unfold new_order, append_order.
  destruct (open_owes o Hop (or_introl Hst)) as (Hw & Hok).
  set (id := order_count s).
  assert (H1 : PW (c - o_amount o) c id (s <| orders ::= <[id := o]> |> <| order_count := u64 (id + 1) |>)).
  { eapply PW_RO_closed with (s := s <| orders ::= <[id := o]> |>); [ro_side|].
    rewrite <- Hw. apply (PW_write c c); [apply P_PW0, HP|exact Ha|exact Hok]. }
  eapply ht_bind with (Q1 := fun i s1 => i = id /\ PW (c - o_amount o) c id s1).
  - apply ht_get. eapply ht_bind with (Q1 := fun _ s1 => PW (c - o_amount o) c id s1); [apply ht_modify, H1|].
    intros [] s1 H2. apply ht_ret. auto.
  - intros i s1 (-> & H2).
    eapply ht_bind_E; [apply (ht_val (PW (c - o_amount o) c id)); [eapply (ht_mok RO); [solve [ro_tac]|ro_closed|exact H2]|apply generate_shards_val]|apply PW_P|].
    cbv beta. intros o1 s2 (H3 & E1 & E2 & E3).
    set (o2 := o1 <| o_created := cx_height cx |>).
    assert (Ea : o_amount o2 = o_amount o) by exact E2.
    destruct (open_owes o2) as (Hw2 & Hok2); [cbn; congruence|cbn; rewrite Hst in E3; tauto|].
    assert (Hfin : P (c - o_amount o) (s2 <| orders ::= <[id := o2]> |>)).
    { rewrite <- Ea, <- Hw2. eapply PW_P, PW_write; [exact H3|rewrite Ea; exact Ha|exact Hok2]. }
    eapply ht_bind with (Q1 := fun _ => P (c - o_amount o)); [apply ht_modify, Hfin|].
    intros [] s3 H4. apply ht_ret, H4.
Qed.

(* transactions: only the normal return is kept *)
Definition tx_ok (m : M unit) : Prop := forall s, G s -> ht m s (fun _ => RE s) (fun _ => True).
Lemma mok_tx_ok m : mok RE true m -> tx_ok m.
Proof. intros H s _. specialize (H s). unfold ht. destruct (m s); auto. Qed.

Lemma ceil_coin_nonneg d : 0 <= d -> 0 <= ceil_coin d.
Proof.
  intros H. unfold ceil_coin, dec_split. pose proof (dec_trunc_nonneg d H).
  destruct (_ =? 0); lia.
Qed.

Lemma sao_store_tx cx m : tx_ok (sao_store cx m).
Proof.
  intros s Hg. eapply ht_conseq with (Q := fun _ => P (slack s)) (E := fun _ => True); [|intros; apply P_RE; assumption|auto].
  pose proof (P_init s Hg) as HP. set (c := slack s) in *.
  unfold sao_store. apply ht_get.
  ht_option; [intros sigdid _|intros _; ht_fails].
  ht_if; intros _; [ht_fails|].
  ht_if; intros _; [ht_fails|].
  ht_if; intros Eop; [ht_fails|].
  ht_if; intros _; [ht_fails|].
  ht_if; intros _; [ht_fails|].
  cbv zeta.
  match goal with |- ht (if ?c then _ else _) _ _ _ => destruct c; [ht_fails|] end.
  match goal with |- ht (if ?c then _ else _) _ _ _ => destruct c; [ht_fails|] end.
  eapply ht_bind with (Q1 := fun pay0 s1 => s1 = s /\ forall a, pay0 = Some a -> a <> ESC).
  { destruct (String.eqb (st_paydid m) ""); [apply ht_ret; split; [reflexivity|discriminate]|].
    ht_if; intros _; [ht_fails|].
    ht_option; [intros a Ea|intros _; ht_fails].
    destruct (String.eqb a (st_creator m)); [|ht_fails].
    apply ht_ret. split; [reflexivity|]. intros a' E. injection E as <-. destruct Hg as (_ & _ & Hp & _). apply (Hp _ _ Ea). }
  intros pay0 s1 (-> & Hpay0).
  ht_option; [intros pn _|intros _; ht_fails].
  destruct (split_commit (st_commit m)) as [last_commit commit].
  ht_if; intros _; [ht_fails|].
  eapply ht_bind with (Q1 := fun _ s1 => s1 = s).
  { destruct pay0; [apply ht_ret; reflexivity|].
    ht_if; intros _; [apply ht_ret; reflexivity|].
    match goal with |- ht (if ?c then _ else _) _ _ _ => destruct c; [apply ht_ret; reflexivity|ht_fails] end. }
  intros isp s1 ->.
  eapply (ht_bind_inv (P c)); [|ht_weak|].
  { destruct isp; [|apply ht_ret, HP]. eapply (ht_mok RO); [solve [ro_tac]|ro_closed|exact HP]. }
  intros sps s1 H1.
  match goal with |- ht (if ?t <? 0 then _ else _) _ _ _ => destruct (t <? 0) eqn:Etot; [exact Logic.I|]; set (total := t) in * end.
  apply Z.ltb_ge in Etot. pose proof (ceil_coin_nonneg total Etot) as Hamt.
  apply ht_get.
  eapply ht_bind with (Q1 := fun payer s2 => s2 = s1 /\ payer <> ESC).
  { destruct pay0 as [a|]; [apply ht_ret; split; [reflexivity|apply Hpay0; reflexivity]|].
    ht_option; [intros a Ea|intros _; ht_fails].
    apply ht_ret. split; [reflexivity|]. destruct H1 as ((_ & _ & Hp & _) & _). apply (Hp _ _ Ea). }
  intros payer s2 (-> & Hpayer).
  ht_if; intros _; [ht_fails|].
  eapply ht_bind with (Q1 := fun _ => P (c + ceil_coin total)).
  { unfold ht, send_strict. destruct (ceil_coin total <=? 0); [exact Logic.I|].
    destruct (balance s1 payer <? ceil_coin total); [exact Logic.I|].
    apply (PW_P _ (c + ceil_coin total) 0), PW_move_in, P_PW0; assumption. }
  intros [] s2 H2.
  assert (Hop : st_op m <> 3).
  { apply orb_false_iff in Eop as (_ & Eop). apply Z.ltb_ge in Eop. lia. }
  eapply (ht_bind_inv (P c)).
  { eapply ht_conseq; [apply new_order_ht; [exact H2|reflexivity|exact Hop|exact Hamt]| |].
    - cbn. intros _ s'. apply P_mono. lia.
    - cbn. intros s'. apply P_mono. lia. }
  { ht_weak. }
  intros [oid o2] s3 H3.
  ht_call. apply ht_get.
  ht_case; [|ht_call].
  ht_case; [ht_fails|]. ht_case; [|ht_fails]. ht_case; [ht_fails|]. ht_case; [ht_fails|]. ht_call.
Qed.

Lemma sao_ready_re cx c p oid : mok RE true (sao_ready cx c p oid).
Proof.
  apply mok_U. intros s HU.
  unfold sao_ready. apply ht_get. ht_option; [intros o Eo|intros _; ht_fails].
  cbv zeta. ht_if; intros _; [ht_fails|]. ht_if; intros Est; [ht_fails|].
  apply negb_false_iff, Z.eqb_eq in Est.
  destruct (U_lookup _ _ _ _ _ HU Eo) as (Hle & Hamt & Hok).
  ht_call.
  eapply ht_bind_E; [apply (ht_val (U (owes_at s) (esc s))); [eapply (ht_mok RO); [solve [ro_tac]|ro_closed|eassumption]|apply generate_shards_val]|auto|].
  cbv beta. intros o' s2 (H2 & E1 & E2 & E3).
  assert (Hop : o_op o <> 3).
  { destruct Hok as [Hc|(Hop & _)]; [rewrite Est in Hc; discriminate|exact Hop]. }
  destruct (open_owes o Hop (or_introl Est)) as (Hw & _).
  destruct (open_owes o') as (Hw' & Hok'); [congruence|rewrite Est in E3; tauto|].
  eapply (ht_bind_inv (U (owes_at s) (esc s))); [|ht_weak|].
  { apply ht_modify. apply U_insert; [exact H2|lia|exact Hok'|lia]. }
  intros [] s3 H3. ht_call.
Qed.

Lemma renew_order_ht o c s :
  P c s -> o_op o = 3 -> o_status o = OrderCompleted -> 0 <= o_amount o ->
  ht (renew_order o) s (fun _ => P c) (P c).
Proof.
  intros HP Hop Hst Ha. unfold renew_order. apply ht_get.
  ht_option; [intros payer Ep|intros _; ht_fails].
  assert (Hne : payer <> ESC) by (destruct HP as ((_ & _ & Hp & _) & _); apply (Hp _ _ Ep)).
  ht_call. unfold append_order. apply ht_get.
  eapply (ht_bind_inv (P c)); [|ht_weak|intros [] s2 H2; apply ht_ret, H2].
  apply ht_modify.
  match goal with |- P c (?s1 <| orders ::= ?f |> <| order_count := ?n |>) =>
    eapply P_RO_closed with (s := s1 <| orders ::= f |>); [ro_side|] end.
  apply P_insert_zero; [assumption|exact Ha|left; exact Hst|apply order_owes_renewal, Hop].
Qed.

Lemma send_keeps_pledges f t a s :
  ht (send_strict f t a) s (fun _ s' => pledges s' = pledges s) (fun s' => pledges s' = pledges s).
Proof. unfold ht, send_strict. destruct (a <=? 0); [reflexivity|]. destruct (_ <? a); reflexivity. Qed.

Lemma renew_one_re cx m sd d : mok RE true (renew_one cx m sd d).
Proof.
  apply mok_P. intros s HP. set (c := slack s) in *.
  unfold renew_one. apply ht_get.
  ht_option; [intros meta _|intros _; apply ht_ret, HP].
  ht_if; intros _; [apply ht_ret, HP|]. ht_if; intros _; [apply ht_ret, HP|].
  ht_option; [intros o Eo|intros _; apply ht_ret, HP].
  ht_option; [intros shs _|intros _; apply ht_ret, HP].
  ht_if; intros Est; [apply ht_ret, HP|].
  apply negb_false_iff, Z.eqb_eq in Est.
  ht_if; intros _; [apply ht_ret, HP|]. cbv zeta.
  match goal with |- ht (if ?t <? 0 then _ else _) _ _ _ => destruct (t <? 0) eqn:Etot; [exact Logic.I|]; set (total := t) in * end.
  apply Z.ltb_ge in Etot. pose proof (ceil_coin_nonneg total Etot) as Hamt.
  eapply (ht_bind_inv (P c)); [|ht_weak|].
  { apply ht_try. apply renew_order_ht; [exact HP|reflexivity|exact Est|exact Hamt]. }
  intros [nid|] s1 H1; [|apply ht_ret, H1].
  eapply (ht_bind_inv (P c)); [|ht_weak|].
  { ht_loop (P c).
    intros l. induction l as [|[id sh] l IH]; intros a s2 H2; fix_unfold; [apply ht_ret, H2|].
    eapply (ht_bind_inv (P c)); [|ht_weak|intros a' s3 H3; apply IH, H3].
    ht_if; intros _; [apply ht_ret, H2|]. cbv zeta.
    ht_if; intros _; [exact Logic.I|].
    eapply (ht_bind_inv (P c)); [|ht_weak|intros sh1 s3 H3; ht_call; apply ht_ret; assumption].
    destruct (sh_pledge sh <? _); [|apply ht_ret, H2].
    destruct (decide (sh_sp sh = ESC)) as [Hesc|Hne].
    - (* the escrow account has no pledge: the Coin.Add on the missing pledge panics *)
      set (J := fun t : State => pledges t !! sh_sp sh = None).
      assert (Hnone : J s2) by (unfold J; rewrite Hesc; apply H2).
      assert (Hsend : forall x, ht (try_ (send_strict (sh_sp sh) (macc NODE) x)) s2 (fun _ => J) (P c)).
      { intros x. apply ht_try. eapply ht_conseq; [apply send_keeps_pledges| |]; cbv beta; intros; unfold J; congruence. }
      apply ht_get. eapply ht_bind with (Q1 := fun _ => J).
      + destruct (_ <=? _); (eapply ht_bind; [apply Hsend|intros ? s3 H3; first [apply ht_ret|apply ht_modify]; exact H3]).
      + intros [] s3 H3. apply ht_get. unfold J in H3. rewrite H3. exact Logic.I.
    - apply ht_get. eapply (ht_mok RO); [solve [ro_tac]|ro_closed|exact H2]. }
  intros new_end s2 H2. ht_call.
  eapply (ht_bind_inv (P c)); [|ht_weak|intros r s4 H4; apply ht_ret, H4].
  apply ht_try. eapply ht_conseq; [apply update_meta_ht; apply (P_PW0 c 0); eassumption|cbv beta; intros; eapply PW_P; eassumption|cbv beta; intros; eapply PW_P; eassumption].
Qed.
Global Hint Resolve renew_one_re : esc.

Lemma sao_renew_re cx m : mok RE true (sao_renew cx m).
Proof. unfold sao_renew. ro_tac. Qed.

Lemma migrate_one_re cx p d : mok RE true (migrate_one cx p d).
Proof.
  apply mok_U. intros s HU. set (f := owes_at s) in *. set (e := esc s) in *.
  unfold migrate_one. apply ht_get. ht_option; [intros meta _|intros _; apply ht_ret, HU].
  ht_loop (U f e).
  intros l. induction l as [|oid l IH]; intros a s1 H1; fix_unfold; [apply ht_ret, H1|].
  apply ht_get. ht_option; [intros o Eo|intros _; apply IH, H1].
  ht_if; intros _; [apply IH, H1|]. cbv zeta.
  destruct (shard_by_sp s1 o p) as [[old_id old]|]; [|apply IH, H1].
  ht_if; intros _; [apply IH, H1|]. ht_if; intros _; [apply IH, H1|].
  ht_call. ht_case; [apply IH; assumption|]. ht_call.
  eapply (ht_bind_inv (U f e)); [|ht_weak|intros [] s4 H4; apply IH, H4].
  apply ht_modify. eapply (U_same f e s1 oid o); [exact H1|exact Eo|repeat split|assumption].
Qed.
Global Hint Resolve migrate_one_re : esc.
Lemma sao_migrate_re cx c p d : mok RE true (sao_migrate cx c p d).
Proof. unfold sao_migrate. ro_tac. Qed.

Lemma sao_cancel_re cx c p oid : mok RE true (sao_cancel cx c p oid).
Proof.
  apply mok_P. intros s HP. set (cc := slack s) in *.
  unfold sao_cancel. apply ht_get. ht_option; [intros o Eo|intros _; ht_fails]. cbv zeta.
  ht_if; intros _; [ht_fails|]. ht_if; intros Est; [ht_fails|].
  apply Z.eqb_neq in Est. ht_if; intros _; [ht_fails|].
  eapply ht_bind_E; [apply (ht_RO _ s); [solve [ro_tac]|reflexivity]|intros s' H; exact (P_RO_closed _ _ _ H HP)|].
  intros [] s1 Hs1. apply (cancel_order_ht cx oid o cc s); assumption.
Qed.

Lemma handle_expired_shard_re cx sid : mok RE true (handle_expired_shard cx sid).
Proof.
  apply mok_U. intros s HU. set (f := owes_at s) in *. set (e := esc s) in *.
  assert (Hf : forall k, 0 <= f k) by (intros k; apply owes_at_nonneg, HU).
  unfold handle_expired_shard. apply ht_get. ht_option; [intros sh _|intros _; apply ht_ret, HU].
  ht_option; [intros o Eo|intros _; apply ht_ret, HU].
  ht_call. ht_call.
  destruct (o_shards o) as [|x [|y l]].
  - apply ht_modify. eapply (U_same f e s _ o); [exact HU|exact Eo|repeat split|assumption].
  - destruct (x =? sid); [|apply ht_ret; assumption]. apply ht_modify. apply U_delete; [assumption|apply Hf].
  - apply ht_modify. eapply (U_same f e s _ o); [exact HU|exact Eo|repeat split|assumption].
Qed.
Global Hint Resolve handle_expired_shard_re : esc.

Lemma handle_timeout_order_re cx oid : mok RE true (handle_timeout_order cx oid).
Proof.
  apply mok_ht. intros s. apply ht_guard. intros Hg.
  pose proof (P_init s Hg) as HP. pose proof (U_init s Hg) as HU.
  unfold handle_timeout_order. apply ht_get.
  ht_option; [intros o Eo|intros _; apply ht_ret; reflexivity].
  destruct (U_lookup _ _ _ _ _ HU Eo) as (Hle & Hamt & Hok).
  assert (Hcancel : forall s1, RO s s1 -> o_status o <> OrderCompleted ->
                      ht (try_ (cancel_order cx oid) ;;; ret tt) s1 (fun _ => RE s) (RE s)).
  { intros s1 Hs1 Hopen. apply ht_P_branch.
    eapply (ht_bind_inv (P (slack s))); [|ht_weak|intros r s2 H2; apply ht_ret, H2].
    apply ht_try, (cancel_order_ht cx oid o _ s); assumption. }
  ht_if; intros Epend.
  { apply Hcancel; [reflexivity|]. apply Z.eqb_eq in Epend. rewrite Epend. discriminate. }
  ht_if; intros _; [apply ht_ret; reflexivity|]. cbv zeta.
  (* the list of the order's shards occurs in every [let] that was unfolded; the proof does not look at it *)
  match goal with |- context [omap ?f (o_shards o)] => generalize (omap f (o_shards o)); intros present end.
  ht_if; intros _.
  { apply ht_U_branch; [exact Hg|]. ht_call. ht_case; [apply ht_ret; assumption|].
    apply ht_modify. eapply (U_same _ _ s oid o); [exact HU|exact Eo|repeat split|assumption]. }
  eapply ht_bind_E; [apply (ht_RO _ s); [solve [ro_tac]|reflexivity]|apply RO_RE|].
  intros rand s1 Hs1. pose proof (U_RO_closed _ _ _ _ Hs1 HU) as HU1.
  destruct rand as [|r0 rand].
  - ht_if; intros _; [|apply ht_U_branch; [exact Hg|]; ht_call].
    ht_if; intros Ecomp.
    + apply negb_true_iff, Z.eqb_neq in Ecomp.
      eapply ht_bind_E; [apply (ht_RO _ s); [solve [ro_tac]|exact Hs1]|apply RO_RE|].
      intros [] s2 Hs2. apply Hcancel; assumption.
    + (* a completed order: the part of its payment that no provider earned is refunded *)
      apply negb_false_iff, Z.eqb_eq in Ecomp. apply ht_U_branch; [exact Hg|].
      ht_call. cbv zeta. ht_case; [exact Logic.I|].
      eapply ht_bind with (Q1 := fun o2 s' => U (owes_at s) (esc s) s' /\ o_status o2 = OrderCompleted /\ 0 <= o_amount o2).
      { ht_case; [unfold ht, ret; split; [assumption|split; [exact Ecomp|exact Hamt]]|]. apply ht_get. ht_call.
        unfold coin_sub. match goal with |- ht (bind (if ?t <? 0 then _ else _) _) _ _ _ => destruct (t <? 0) eqn:Esub end; [exact Logic.I|].
        apply Z.ltb_ge in Esub. unfold ht, bind, ret. split; [assumption|]. split; [exact Ecomp|exact Esub]. }
      intros o2 s3 (H3 & E1' & E2'). apply ht_modify.
      apply U_insert; [exact H3|exact E2'|left; exact E1'|]. rewrite (order_owes_completed o2 E1'). apply owes_at_nonneg, Hg.
  - apply ht_U_branch; [exact Hg|].
    eapply ht_bind with (Q1 := fun o' s' => U (owes_at s) (esc s) s' /\ same_owes o' o).
    { ht_loop (U (owes_at s) (esc s)) with (fun a o' s' => U (owes_at s) (esc s) s' /\ same_owes o' a).
      intros l. induction l as [|[newsp [sid sh]] l IH]; intros a s2 H2; fix_unfold; [apply ht_ret; split; [exact H2|repeat split]|].
      ht_call. ht_call. eapply ht_conseq; [apply IH; assumption|cbn; intros o' s' HH; exact HH|auto]. }
    intros o' s2 (H2 & Esame).
    eapply (ht_bind_inv (U (owes_at s) (esc s))); [|ht_weak|intros [] s3 H3; ht_call].
    apply ht_modify. eapply (U_same _ _ s oid o); [exact HU|exact Eo|exact Esame|exact H2].
Qed.
Global Hint Resolve handle_timeout_order_re : esc.

Lemma end_block_sao_re cx : mok RE true (end_block_sao cx).
Proof. unfold end_block_sao. ro_tac. Qed.

Lemma complete_migration_ht cx oid o sid sh s0 s :
  G s0 -> orders s0 !! oid = Some o -> orders s = orders s0 -> U (owes_at s0) (esc s0) s0 -> U (owes_at s0) (esc s0) s ->
  ht (complete_migration cx oid o sid sh) s
     (fun r s' => U (owes_at s0) (esc s0) s' /\ same_owes r.2 o)
     (fun _ => True).
Proof.
  intros Hg Eo Eos HU0 HU. set (f := owes_at s0) in *. set (e := esc s0) in *.
  assert (Hf : forall k, 0 <= f k) by (intros k; apply owes_at_nonneg, Hg).
  unfold complete_migration. ht_if; intros _; [ht_fails|].
  apply ht_get. destruct (shard_by_sp s o (sh_from sh)) as [[old_id old]|]; [|exact Logic.I].
  ht_call. cbv zeta. ht_call. ht_call. ht_call.
  eapply (ht_bind_inv (U f e)); [|ht_weak|].
  { apply ht_modify. eapply (U_same f e s0 oid o); [exact HU0|exact Eo|repeat split|assumption]. }
  intros [] s5 H5.
  eapply (ht_bind_inv (U f e)); [|ht_weak|intros [] s6 H6; apply ht_ret; split; [exact H6|repeat split]].
  apply ht_forM; [|exact H5]. intros id s6 H6.
  destruct (orders s !! id) as [x|] eqn:Ex.
  - apply ht_modify. rewrite Eos in Ex.
    eapply (U_same f e s0 id x); [exact HU0|exact Ex|repeat split|exact H6].
  - apply ht_modify. apply U_insert; [exact H6|cbn; lia|right; split; [discriminate|left; reflexivity]|apply Hf].
Qed.

Lemma sao_complete_tx cx c p oid cid sz ok : tx_ok (sao_complete cx c p oid cid sz ok).
Proof.
  intros s Hg. pose proof (P_init s Hg) as HP. pose proof (U_init s Hg) as HU.
  unfold sao_complete. ht_if; intros _; [ht_fails|]. apply ht_get.
  ht_option; [intros o Eo|intros _; ht_fails].
  destruct (U_lookup _ _ _ _ _ HU Eo) as (Hle & Hamt & Hok).
  ht_if; intros _; [ht_fails|]. destruct (shard_by_sp s o p) as [[sid sh]|]; [|ht_fails].
  ht_if; intros _; [ht_fails|].
  match goal with |- ht (if ?c then _ else _) _ _ _ => destruct c; [ht_fails|] end.
  ht_if; intros _; [ht_fails|]. ht_option; [intros meta _|intros _; ht_fails].
  match goal with |- ht (if ?c then _ else _) _ _ _ => destruct c; [ht_fails|] end.
  ht_if; intros _; [ht_fails|]. ht_if; intros _; [ht_fails|].
  (* each branch says what the calls after it, which keep [RO], may assume when they write the order *)
  eapply ht_bind with (Q1 := fun r s1 => forall t, RO s1 t -> RE s (t <| orders ::= <[oid := r.2]> |>)).
  - destruct (sh_status sh =? ShardMigrating).
    + eapply ht_conseq; [apply (complete_migration_ht cx oid o sid sh s s Hg Eo eq_refl HU HU)| |auto].
      intros [[sh1 ip] o'] s1 (H1 & Esame) t Ht. cbn [snd] in *. apply U_RE; [exact Hg|].
      eapply (U_same _ _ s oid o); [exact HU|exact Eo|exact Esame|exact (U_RO_closed _ _ _ _ Ht H1)].
    + cbv zeta.
      destruct (negb (o_status o =? OrderCompleted)) eqn:Ecomp.
      * apply negb_true_iff, Z.eqb_neq in Ecomp.
        pose proof (order_owes_open o Hok Ecomp) as Hw.
        assert (HW : PW (slack s) (slack s + o_amount o) oid s).
        { pose proof (P_PW (slack s) oid s HP) as H. rewrite (owes_at_lookup _ _ _ Eo), Hw in H. exact H. }
        eapply (ht_bind_inv (PW (slack s) (slack s + o_amount o) oid));
          [eapply (ht_mok RO); [solve [ro_tac]|ro_closed|exact HW]|ht_weak|intros [] s1 H1].
        eapply ht_bind_E; [apply update_meta_ht; exact H1|auto|]. intros [] s2 H2.
        eapply ht_bind_E; [apply market_deposit_ht, H2|auto|]. intros [] s3 H3.
        apply ht_ret. cbn [snd]. intros t Ht. apply P_RE.
        pose (oc := (o <| o_status := OrderCompleted |>) : Order).
        assert (Hc : o_status oc = OrderCompleted) by reflexivity.
        pose proof (PW_P _ _ _ _ (PW_write _ _ _ _ oc (PW_RO_closed _ _ _ _ _ Ht H3) Hamt (or_introl Hc))) as HH.
        pose proof (order_owes_completed _ Hc) as H0. eapply P_mono; [|exact HH]. lia.
      * apply negb_false_iff, Z.eqb_eq in Ecomp.
        eapply (ht_bind_inv (U (owes_at s) (esc s)));
          [eapply (ht_mok RO); [solve [ro_tac]|ro_closed|exact HU]|ht_weak|intros [] s1 H1].
        apply ht_ret. cbn [snd]. intros t Ht. apply U_RE; [exact Hg|].
        eapply (U_same _ _ s oid o); [exact HU|exact Eo|repeat split|exact (U_RO_closed _ _ _ _ Ht H1)].
  - intros [[sh1 ip] o'] s1 Hfin. cbn [snd] in Hfin. cbv beta iota zeta.
    assert (T0 : RO s1 s1) by reflexivity.
    repeat (eapply ht_bind_E; [apply (ht_RO _ s1); [solve [ro_tac]|assumption]|auto|intros ? ? ?]).
    apply ht_modify, Hfin. assumption.
Qed.

(** * The operations that the escrow account itself cannot issue *)
Definition ev_ok (e : StEvent) : Prop := match e with EvBal a _ => a <> ESC | _ => True end.
Definition did_op_ok (o : DidOp) : Prop :=
  match o with
  | OpBinding _ m => forall c, parse_account_id (b_accid m) = Some c -> c_address c <> ESC
  | OpUpdatePay m => forall c, parse_account_id (p_accid m) = Some c -> c_address c <> ESC
  | OpUpdate _ _ => True
  end.
(* the order escrow is a module account: it signs no transaction, binds to no DID, and the
   staking module does not move its coins *)
Definition not_from_escrow (op : Op) : Prop :=
  match op with
  | OSend f _ _ => f <> ESC
  | OAddVstorage c _ => c <> ESC
  | OStaking evs | OEndBlock evs => Forall ev_ok evs
  | ODid o => did_op_ok o
  | _ => True
  end.

Lemma did_handle_pay chain o d d' :
  did_op_ok o -> did_handle chain o d = inr d' ->
  forall x a, d_pay d' !! x = Some a -> d_pay d !! x = Some a \/ a <> ESC.
Proof.
  intros Hok E x a Hx. destruct o as [now m|now m|m]; cbn [did_handle] in E.
  - apply did_binding_inv in E as (c & B). destruct (B_docver _ _ _ _ _ B) as [(_ & _ & _ & _ & Ep)|(_ & _ & _ & _ & _ & [Ep|(_ & _ & _ & Ep)])].
    + left. rewrite <- Ep. exact Hx.
    + left. rewrite <- Ep. exact Hx.
    + rewrite Ep in Hx. destruct (decide (x = b_pdid m)) as [->|Hne].
      * rewrite lookup_insert in Hx. injection Hx as <-. right. apply (Hok c), (B_parse _ _ _ _ _ B).
      * rewrite lookup_insert_ne in Hx by congruence. left. exact Hx.
  - apply did_update_inv in E as (accl & pay & rm & meth & pid & Uo). left. rewrite <- (U_pay' _ _ _ _ _ _ _ _ _ Uo). exact Hx.
  - apply did_update_pay_inv in E as (meth & pid & c & Po). rewrite (P_pay' _ _ _ _ _ _ _ Po) in Hx.
    destruct (decide (x = p_did m)) as [->|Hne].
    + rewrite lookup_insert in Hx. injection Hx as <-. right. apply (Hok c), (P_acc _ _ _ _ _ _ _ Po).
    + rewrite lookup_insert_ne in Hx by congruence. left. exact Hx.
Qed.

Lemma lift_did_ro cx o : did_op_ok o -> mok RO true (lift_did cx o).
Proof.
  intros Hok s. unfold lift_did. destruct (did_handle (cx_chain cx) o (did s)) as [e|d'] eqn:E; [reflexivity|].
  intros (Ha & Hs & Hp & Hn). split; [|split; [apply Z.le_refl|reflexivity]].
  split; [exact Ha|]. split; [exact Hs|]. split; [|exact Hn].
  intros x a Hx. unfold pay_addr in Hx. cbn in Hx.
  destruct (did_handle_pay _ _ _ _ Hok E x a Hx) as [H|H]; [apply (Hp x a H)|exact H].
Qed.

Lemma st_event_ro e : ev_ok e -> mok RO true (st_event e).
Proof.
  intros Hok. destruct e; cbn [st_event]; ro_tac.
  apply RO_frame; try reflexivity; [|auto].
  unfold esc, balance. cbn. rewrite lookup_insert_ne by (cbn in Hok; congruence). apply Z.le_refl.
Qed.
Lemma staking_tx_ro evs : Forall ev_ok evs -> mok RO true (staking_tx evs).
Proof.
  intros H. unfold staking_tx. induction H as [|e evs He _ IH]; cbn [forM]; [apply mok_ret; exact _|].
  apply mok_bind; [exact _|apply st_event_ro, He|intros _; exact IH].
Qed.

(** * Every step *)
Lemma RE_pg s p : RE s (with_pg s p).
Proof. intros Hg. split; [exact Hg|apply Z.le_refl]. Qed.
Lemma RE_with_pg s s' : RE s s' -> RE s (with_pg s (pg s')).
Proof. intros _. apply RE_pg. Qed.

Lemma tx_RE cx op m : not_from_escrow op -> tx_of cx op = Some m -> tx_ok m.
Proof.
  intros Hop E. destruct op; cbn [tx_of] in E; try discriminate E; injection E as <-; cbn [not_from_escrow] in Hop.
  - apply mok_tx_ok, mok_RO_RE, lift_did_ro, Hop.
  - apply mok_tx_ok, mok_RO_RE, node_create_ro.
  - apply mok_tx_ok, mok_RO_RE, node_reset_ro.
  - apply mok_tx_ok, mok_RO_RE, add_vstorage_ro, Hop.
  - apply mok_tx_ok, mok_RO_RE, remove_vstorage_ro.
  - apply mok_tx_ok, mok_RO_RE. apply mok_bind; [exact _|apply claim_reward_ro|intros; apply mok_ret; exact _].
  - apply sao_store_tx.
  - apply mok_tx_ok, sao_ready_re.
  - apply sao_complete_tx.
  - apply mok_tx_ok, sao_cancel_re.
  - apply mok_tx_ok, sao_renew_re.
  - apply mok_tx_ok, sao_terminate_re.
  - apply mok_tx_ok, sao_migrate_re.
  - apply mok_tx_ok, mok_RO_RE, sao_update_permission_ro.
  - apply mok_tx_ok, mok_RO_RE, sao_report_faults_ro.
  - apply mok_tx_ok, mok_RO_RE, sao_recover_faults_ro.
  - apply mok_tx_ok, mok_RO_RE, send_strict_ro, Hop.
  - apply mok_tx_ok, mok_RO_RE, staking_tx_ro, Hop.
Qed.

Lemma end_block_re cx evs : Forall ev_ok evs -> mok RE true (end_block cx evs).
Proof.
  intros H. unfold end_block.
  apply mok_bind; [exact _|apply mok_RO_RE, staking_tx_ro, H|intros _].
  apply mok_bind; [exact _|apply end_block_sao_re|intros _].
  apply mok_bind; [exact _|apply mok_RO_RE, end_block_node_ro|intros _; apply mok_RO_RE, end_block_model_ro].
Qed.

Theorem step_RE : forall cx s op, not_from_escrow op -> RE s (fst (step cx s op)).
Proof.
  intros cx s op Hop. rewrite step_state.
  assert (Hblk : forall A (m : M A), mok RE true m -> RE s (block_phase m s).1.1).
  { intros A m Hm. rewrite block_phase_state. specialize (Hm s). destruct (m s); auto; reflexivity. }
  assert (Hdel : forall m, tx_of cx op = Some m -> RE s (deliver m s).1.1).
  { intros m Hm. rewrite deliver_state. intros Hg. pose proof (tx_RE cx op m Hop Hm s Hg) as H. unfold ht in H.
    destruct (m s); [apply H, Hg|apply RE_pg, Hg|split; [exact Hg|lia]|split; [exact Hg|lia]]. }
  destruct op; try (apply Hdel; reflexivity).
  - apply Hblk, mok_RO_RE, begin_block_ro.
  - apply Hblk, end_block_re, Hop.
  - destruct (staking_tx evs s); try reflexivity; apply RE_pg.
Qed.

Theorem step_order_escrow_partial : forall cx s op,
  not_from_escrow op -> Inv_amounts s -> Inv_status s -> pay_not_escrow s -> no_escrow_pledge s ->
  Inv_order_escrow s -> Inv_order_escrow (fst (step cx s op)).
Proof.
  intros cx s op Hop H1 H2 H3 H4 Hinv. apply escrow_slack. apply escrow_slack in Hinv.
  destruct (step_RE cx s op Hop (conj H1 (conj H2 (conj H3 H4)))) as (_ & Hs). lia.
Qed.

Theorem step_amounts : forall cx s op,
  not_from_escrow op -> Inv_amounts s -> Inv_status s -> pay_not_escrow s -> no_escrow_pledge s ->
  Inv_amounts (fst (step cx s op)) /\ Inv_status (fst (step cx s op)) /\ pay_not_escrow (fst (step cx s op)) /\
  no_escrow_pledge (fst (step cx s op)).
Proof. intros cx s op Hop H1 H2 H3 H4. apply (step_RE cx s op Hop (conj H1 (conj H2 (conj H3 H4)))). Qed.

Definition trace_ok (tr : list (Ctx * Op)) : Prop := Forall (fun co => not_from_escrow co.2) tr.

Theorem run_order_escrow_partial : forall tr s,
  trace_ok tr -> G s -> Inv_order_escrow s -> G (run tr s) /\ Inv_order_escrow (run tr s).
Proof.
  intros tr s Htr Hg Hinv.
  apply (run_preserves (fun s => G s /\ Inv_order_escrow s) (fun tr _ => trace_ok tr)); [|exact Htr|split; assumption].
  intros cx op tr' s' Hc (Hg' & Hi'). apply Forall_cons in Hc as (Hop & Hc).
  destruct (step_RE cx s' op Hop Hg') as (Hg'' & Hs). apply escrow_slack in Hi'.
  split; [split; [exact Hg''|apply escrow_slack; lia]|exact Hc].
Qed.

(** * A refund of an unsettled order cannot fail for lack of escrowed funds *)
Lemma owes_at_le_sum s k : Inv_amounts s -> owes_at s k <= sum_map order_owes (orders s).
Proof.
  intros Ha. unfold owes_at, at_key. destruct (orders s !! k) as [o|] eqn:E.
  - pose proof (sum_map_delete order_owes (orders s) k) as H. rewrite E in H.
    assert (0 <= sum_map order_owes (delete k (orders s))); [|lia].
    apply sum_map_nonneg. intros j x Hj. apply lookup_delete_Some in Hj as (_ & Hj). apply order_owes_nonneg, (Ha j x Hj).
  - apply sum_map_nonneg. intros j x Hj. apply order_owes_nonneg, (Ha j x Hj).
Qed.

Theorem refund_never_short : forall s oid o,
  Inv_amounts s -> Inv_order_escrow s -> orders s !! oid = Some o ->
  o_op o <> 3 -> (o_status o = OrderPending \/ o_status o = OrderDataReady) ->
  o_amount o <= balance s ESC /\
  refund_order oid s =
    match pay_addr s (Money.paydid_of o) with
    | None => Err "PayAddrNotSet" s
    | Some payer => if o_amount o <=? 0 then Err "invalid coins" s else Ok tt (move ESC payer (o_amount o) s)
    end.
Proof.
  intros s oid o Ha Hinv Eo Hop Hst.
  assert (Hle : o_amount o <= balance s ESC).
  { destruct (open_owes o Hop Hst) as (Hw & _). pose proof (owes_at_le_sum s oid Ha) as H.
    rewrite (owes_at_lookup _ _ _ Eo), Hw in H. unfold Inv_order_escrow in Hinv. lia. }
  split; [exact Hle|].
  unfold refund_order, bind, get. cbv beta. rewrite Eo. fold (Money.paydid_of o).
  destruct (pay_addr s (Money.paydid_of o)) as [payer|]; [|reflexivity].
  unfold send_strict. destruct (o_amount o <=? 0); [reflexivity|].
  destruct (balance s ESC <? o_amount o) eqn:E; [apply Z.ltb_lt in E; lia|reflexivity].
Qed.

Corollary refund_never_short_err : forall s oid o e s',
  Inv_amounts s -> Inv_order_escrow s -> orders s !! oid = Some o ->
  o_op o <> 3 -> (o_status o = OrderPending \/ o_status o = OrderDataReady) ->
  refund_order oid s = Err e s' -> e <> "insufficient funds".
Proof.
  intros s oid o e s' Ha Hinv Eo Hop Hst E.
  destruct (refund_never_short s oid o Ha Hinv Eo Hop Hst) as (_ & H). rewrite H in E.
  destruct (pay_addr s _); [destruct (_ <=? 0)|]; try discriminate E; injection E as <- _; discriminate.
Qed.

(** * Non-vacuity; [not_from_escrow], [pay_not_escrow] and [Inv_status] are needed *)
Lemma G_map_Forall s :
  map_Forall (fun _ o => 0 <= o_amount o /\ status_ok o) (orders s) ->
  map_Forall (fun _ a => a <> ESC) (d_pay (did s)) -> pledges s !! ESC = None -> G s.
Proof.
  intros H1 H2 H3. split; [intros k o E; apply (H1 k o E)|]. split; [intros k o E; apply (H1 k o E)|].
  split; [intros x a E; apply (H2 x a E)|exact H3].
Qed.
Global Instance status_ok_dec o : Decision (status_ok o).
Proof. unfold status_ok. apply _. Defined.

Ltac decide_tac := apply (bool_decide_unpack _); vm_compute; exact Logic.I.

(* the state after a Store in the example of Money.v: one order in status DataReady that owes
   3600, one waiting shard, one pledge, 3600 in escrow *)
Example escrow_nonvacuous :
  G Money.ex_s1 /\ Inv_order_escrow Money.ex_s1 /\ slack Money.ex_s1 = 0 /\
  (exists o, orders Money.ex_s1 !! 1 = Some o /\ order_owes o = 3600 /\ o_status o = OrderDataReady) /\
  (exists sh, shards Money.ex_s1 !! 1 = Some sh) /\ (exists p, pledges Money.ex_s1 !! "S" = Some p) /\
  not_from_escrow (OStore Money.ex_msg) /\ not_from_escrow (OCancel "G" "G" 1) /\
  Inv_order_escrow Money.ex_s2.
Proof.
  split; [apply G_map_Forall; [decide_tac|decide_tac|vm_compute; reflexivity]|].
  split; [unfold Inv_order_escrow; vm_compute; discriminate|].
  split; [vm_compute; reflexivity|].
  split; [eexists; split; [vm_compute; reflexivity|split; vm_compute; reflexivity]|].
  split; [eexists; vm_compute; reflexivity|]. split; [eexists; vm_compute; reflexivity|].
  split; [exact Logic.I|]. split; [exact Logic.I|]. unfold Inv_order_escrow. vm_compute. discriminate.
Qed.

(* [not_from_escrow] is needed: in the model any address can be the sender of a bank
   transfer; a transfer out of the escrow account leaves the order unfunded. (On the chain a
   module account has no key and cannot sign.) *)
Theorem step_order_escrow_refuted_sender : exists cx s op,
  G s /\ Inv_order_escrow s /\ ~ not_from_escrow op /\ ~ Inv_order_escrow (fst (step cx s op)).
Proof.
  exists Money.ex_cx, Money.ex_s1, (OSend ESC "X" 100).
  split; [exact (proj1 escrow_nonvacuous)|]. split; [exact (proj1 (proj2 escrow_nonvacuous))|].
  split; [intros H; apply H; reflexivity|]. unfold Inv_order_escrow. vm_compute. intros H. apply H. reflexivity.
Qed.

(* [pay_not_escrow] is needed: a DID whose payment address is the escrow account pays
   itself, and the new order is not funded *)
Definition open_order (amt : Z) : Order :=
  mkOrder "G" "did:key:K1" "G" "cid" 3600 OrderPending 1 [] amt 1 1 0 100 "other" "c" PRICE "".
Definition exq_s0 : State := Money.ex_state ESC {[ 0 := open_order 10000 ]}.
Theorem step_order_escrow_refuted_payer : exists cx s op,
  not_from_escrow op /\ Inv_amounts s /\ Inv_status s /\ no_escrow_pledge s /\ ~ pay_not_escrow s /\
  Inv_order_escrow s /\ ~ Inv_order_escrow (fst (step cx s op)).
Proof.
  exists Money.ex_cx, exq_s0, (OStore Money.ex_msg).
  split; [exact Logic.I|].
  split; [intros k o E; assert (H : map_Forall (fun _ o => 0 <= o_amount o) (orders exq_s0)) by decide_tac; apply (H k o E)|].
  split; [intros k o E; assert (H : map_Forall (fun _ o => status_ok o) (orders exq_s0)) by decide_tac; apply (H k o E)|].
  split; [vm_compute; reflexivity|].
  split; [intros H; apply (H "did:key:K1" ESC); vm_compute; reflexivity|].
  split; [unfold Inv_order_escrow; vm_compute; discriminate|].
  unfold Inv_order_escrow. vm_compute. intros H. apply H. reflexivity.
Qed.

(* [Inv_status] is needed: an order in a status the chain never stores (InProgress) is not
   counted as owing, yet its first completion moves its amount out of the escrow *)
Definition exst_s0 : State :=
  Money.ex_s1 <| orders ::= (fun om => <[0 := open_order 3600]>
     (match om !! 1 with Some o => <[1 := o <| o_status := OrderInProgress |>]> om | None => om end)) |>.
Theorem step_order_escrow_refuted_status : exists cx s op,
  not_from_escrow op /\ Inv_amounts s /\ ~ Inv_status s /\ pay_not_escrow s /\ no_escrow_pledge s /\
  Inv_order_escrow s /\ ~ Inv_order_escrow (fst (step cx s op)).
Proof.
  exists Money.ex_cx, exst_s0, (OComplete "S" "S" 1 "cid" 1000000 true).
  split; [exact Logic.I|].
  split; [intros k o E; assert (H : map_Forall (fun _ o => 0 <= o_amount o) (orders exst_s0)) by decide_tac; apply (H k o E)|].
  split.
  { intros H. assert (E : exists o, orders exst_s0 !! 1 = Some o /\ o_status o = OrderInProgress /\ o_op o = 1)
      by (eexists; split; [vm_compute; reflexivity|split; reflexivity]).
    destruct E as (o & E & E1 & E2). destruct (H 1 o E) as [Hc|(_ & [Hc|Hc])]; rewrite E1 in Hc; discriminate. }
  split; [intros x a E; assert (H : map_Forall (fun _ a => a <> ESC) (d_pay (did exst_s0))) by decide_tac; apply (H x a E)|].
  split; [vm_compute; reflexivity|].
  split; [unfold Inv_order_escrow; vm_compute; discriminate|].
  unfold Inv_order_escrow. vm_compute. intros H. apply H. reflexivity.
Qed.

(** * C16: at most one unfinished storage order per data model -- refuted *)
(* The full statement
     forall cx s op, Inv_one_in_flight s -> Inv_one_in_flight (fst (step cx s op))
   and its lifting to runs from a state without orders are FALSE of the model (and of the
   code).  The Store handler accepts a new order for an existing model only when the order
   recorded in the metadata is completed -- but when the metadata expires (model end blocker,
   x/model/abic.go) it is deleted without regard to an order that is still waiting for its
   shards.  A later Store of the same data id finds no metadata, creates it afresh and
   opens a second order, while the first one is still unfinished (and still escrowed). *)
Definition fl_s0 : State := Money.ex_s0 <| nparams := mkNParams 0 0 0 1 1 0 "" 0 0 0 1000000 |>.
Definition cx_at (h : Z) : Ctx := {| cx_height := h; cx_chain := "c"; cx_time := 0; cx_seed := 7 |}.
Definition fl_tr : list (Ctx * Op) :=
  [(cx_at 5, OStore Money.ex_msg); (cx_at 3605, OEndBlock []); (cx_at 3606, OStore Money.ex_msg)].
Definition fl_s2 : State := run [(cx_at 5, OStore Money.ex_msg); (cx_at 3605, OEndBlock [])] fl_s0.
Definition fl_s3 : State := run fl_tr fl_s0.

Lemma fl_s3_two : ~ Inv_one_in_flight fl_s3.
Proof.
  intros H.
  assert (Em : exists m, metas fl_s3 !! Money.ex_data = Some m) by (eexists; vm_compute; reflexivity).
  assert (E1 : exists o, orders fl_s3 !! 1 = Some o /\ in_flight Money.ex_data o = true)
    by (eexists; split; vm_compute; reflexivity).
  assert (E2 : exists o, orders fl_s3 !! 2 = Some o /\ in_flight Money.ex_data o = true)
    by (eexists; split; vm_compute; reflexivity).
  destruct Em as (m & Em). destruct E1 as (o1 & E1 & F1). destruct E2 as (o2 & E2 & F2).
  pose proof (H _ _ Em 1 2 o1 o2 E1 E2 F1 F2) as Hc. discriminate Hc.
Qed.

(* [fl_s3] as the end of the run and as one step after [fl_s2].  The definitions are unfolded by
   hand: conversion left to itself evaluates the runs. *)
Lemma fl_s3_run : run fl_tr fl_s0 = fl_s3.
Proof. unfold fl_s3. reflexivity. Qed.
Lemma fl_s3_step : fst (step (cx_at 3606) fl_s2 (OStore Money.ex_msg)) = fl_s3.
Proof. unfold fl_s3, fl_s2, fl_tr, run. cbn [fold_left fst snd]. reflexivity. Qed.

Lemma fl_s0_good : G fl_s0 /\ Inv_ids fl_s0 /\ Inv_order_escrow fl_s0 /\ Inv_one_in_flight fl_s0 /\ orders fl_s0 = ∅.
Proof.
  split; [apply G_map_Forall; [decide_tac|decide_tac|vm_compute; reflexivity]|].
  split; [split; intros id x Hx; cbn in Hx; rewrite lookup_empty in Hx; discriminate|].
  split; [unfold Inv_order_escrow; vm_compute; discriminate|].
  split; [|reflexivity]. intros d m Hm. cbn in Hm. rewrite lookup_empty in Hm. discriminate.
Qed.

Theorem run_one_in_flight_refuted : exists tr s,
  trace_ok tr /\ G s /\ Inv_ids s /\ orders s = ∅ /\ Inv_one_in_flight s /\ ~ Inv_one_in_flight (run tr s).
Proof.
  exists fl_tr, fl_s0. destruct fl_s0_good as (H1 & H2 & _ & H4 & H5).
  split; [repeat constructor|]. repeat (split; [assumption|]). rewrite fl_s3_run. exact fl_s3_two.
Qed.

Theorem step_one_in_flight_refuted : exists cx s op,
  not_from_escrow op /\ G s /\ Inv_order_escrow s /\ Inv_one_in_flight s /\ ~ Inv_one_in_flight (fst (step cx s op)).
Proof.
  exists (cx_at 3606), fl_s2, (OStore Money.ex_msg).
  split; [exact Logic.I|].
  destruct fl_s0_good as (H1 & _ & H3 & _ & _).
  destruct (run_order_escrow_partial [(cx_at 5, OStore Money.ex_msg); (cx_at 3605, OEndBlock [])] fl_s0) as (Hg & Hi);
    [repeat constructor|exact H1|exact H3|].
  split; [exact Hg|]. split; [exact Hi|]. split.
  - assert (E : metas fl_s2 = ∅) by (apply map_to_list_empty_iff; vm_compute; reflexivity).
    intros d m Hm. rewrite E, lookup_empty in Hm. discriminate Hm.
  - rewrite fl_s3_step. exact fl_s3_two.
Qed.

(* the escrow, on the other hand, still covers both orders *)
Example fl_s3_escrow : Inv_order_escrow fl_s3 /\ balance fl_s3 ESC = 7200.
Proof.
  split; [|vm_compute; reflexivity].
  destruct fl_s0_good as (H1 & _ & H3 & _ & _). apply (run_order_escrow_partial fl_tr fl_s0); [repeat constructor|exact H1|exact H3].
Qed.

Theorem Escrow_step_order_escrow_partial : forall cx s op,
  not_from_escrow op -> Inv_amounts s -> Inv_status s -> pay_not_escrow s -> no_escrow_pledge s ->
  Inv_order_escrow s -> Inv_order_escrow (fst (step cx s op)).
Proof. exact step_order_escrow_partial. Qed.
Theorem Escrow_step_side_conditions : forall cx s op,
  not_from_escrow op -> Inv_amounts s -> Inv_status s -> pay_not_escrow s -> no_escrow_pledge s ->
  Inv_amounts (fst (step cx s op)) /\ Inv_status (fst (step cx s op)) /\ pay_not_escrow (fst (step cx s op)) /\
  no_escrow_pledge (fst (step cx s op)).
Proof. exact step_amounts. Qed.
Theorem Escrow_run_order_escrow_partial : forall tr s,
  trace_ok tr -> G s -> Inv_order_escrow s -> G (run tr s) /\ Inv_order_escrow (run tr s).
Proof. exact run_order_escrow_partial. Qed.
Theorem Escrow_refund_never_short : forall s oid o,
  Inv_amounts s -> Inv_order_escrow s -> orders s !! oid = Some o ->
  o_op o <> 3 -> (o_status o = OrderPending \/ o_status o = OrderDataReady) ->
  o_amount o <= balance s ESC /\
  refund_order oid s =
    match pay_addr s (Money.paydid_of o) with
    | None => Err "PayAddrNotSet" s
    | Some payer => if o_amount o <=? 0 then Err "invalid coins" s else Ok tt (move ESC payer (o_amount o) s)
    end.
Proof. exact refund_never_short. Qed.
Theorem Escrow_refund_never_short_err : forall s oid o e s',
  Inv_amounts s -> Inv_order_escrow s -> orders s !! oid = Some o ->
  o_op o <> 3 -> (o_status o = OrderPending \/ o_status o = OrderDataReady) ->
  refund_order oid s = Err e s' -> e <> "insufficient funds".
Proof. exact refund_never_short_err. Qed.
Theorem Escrow_refuted_sender : exists cx s op,
  G s /\ Inv_order_escrow s /\ ~ not_from_escrow op /\ ~ Inv_order_escrow (fst (step cx s op)).
Proof. exact step_order_escrow_refuted_sender. Qed.
Theorem Escrow_refuted_payer : exists cx s op,
  not_from_escrow op /\ Inv_amounts s /\ Inv_status s /\ no_escrow_pledge s /\ ~ pay_not_escrow s /\
  Inv_order_escrow s /\ ~ Inv_order_escrow (fst (step cx s op)).
Proof. exact step_order_escrow_refuted_payer. Qed.
Theorem Escrow_refuted_status : exists cx s op,
  not_from_escrow op /\ Inv_amounts s /\ ~ Inv_status s /\ pay_not_escrow s /\ no_escrow_pledge s /\
  Inv_order_escrow s /\ ~ Inv_order_escrow (fst (step cx s op)).
Proof. exact step_order_escrow_refuted_status. Qed.
Theorem Escrow_run_one_in_flight_refuted : exists tr s,
  trace_ok tr /\ G s /\ Inv_ids s /\ orders s = ∅ /\ Inv_one_in_flight s /\ ~ Inv_one_in_flight (run tr s).
Proof. exact run_one_in_flight_refuted. Qed.
Theorem Escrow_step_one_in_flight_refuted : exists cx s op,
  not_from_escrow op /\ G s /\ Inv_order_escrow s /\ Inv_one_in_flight s /\ ~ Inv_one_in_flight (fst (step cx s op)).
Proof. exact step_one_in_flight_refuted. Qed.
Print Assumptions Escrow_step_order_escrow_partial.
Print Assumptions Escrow_step_side_conditions.
Print Assumptions Escrow_run_order_escrow_partial.
Print Assumptions Escrow_refund_never_short.
Print Assumptions Escrow_refund_never_short_err.
Print Assumptions escrow_nonvacuous.
Print Assumptions Escrow_refuted_sender.
Print Assumptions Escrow_refuted_payer.
Print Assumptions Escrow_refuted_status.
Print Assumptions Escrow_run_one_in_flight_refuted.
Print Assumptions Escrow_step_one_in_flight_refuted.
