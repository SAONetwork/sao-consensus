(* The re-assignment loop of HandleTimeoutOrder indexes timeoutShards[i] for every provider RandomSP returned. The model
   pairs the two lists with [combine]; this file shows that nothing is cut off: RandomSP, asked for as many providers as
   shards have stalled, never returns more, so every provider returned is paired with a stalled shard and the Go index is
   in range. *)
From SaoVerif Require Import Base.Prelude Base.Ints Base.Dec Model.Did Model.Types Model.Monad Model.Bank Model.Select
     Model.Node Model.Storage Model.Sao Proofs.SelectApp.

Theorem reassignment_index_in_range : forall {A} cx (stalled : list A) ignore size s sps s',
  0 <= cx_seed cx -> random_sp_m cx (Z.of_nat (length stalled)) ignore size s = Ok sps s' ->
  (length sps <= length stalled)%nat /\ length (combine sps stalled) = length sps.
Proof.
  intros A cx stalled ignore size s sps s' Hseed H.
  destruct (random_sp_m_spec _ _ _ _ _ _ _ Hseed H) as (_ & _ & Hlen & _).
  assert (Hle : (length sps <= length stalled)%nat) by lia.
  split; [exact Hle|]. rewrite combine_length. lia.
Qed.
Print Assumptions reassignment_index_in_range.
