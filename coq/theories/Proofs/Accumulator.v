(* C14 (network totals) and C08 (reward-per-share accumulator): the pool counters equal the
   sums over providers, BeginBlock mints what it distributes, claims take whole coins
   out of the claimer's credit, nothing else moves the total credited. *)
From SaoVerif Require Import Base.Prelude Base.Ints Base.Dec Model.Did Model.Types Model.Monad Model.Bank Model.Select
     Model.Node Model.Storage Model.Sao Model.Hooks Model.App Model.Spec Proofs.Sums Proofs.Outcome.
From RecordUpdate Require Import RecordUpdate.
Import RecordSetNotations.

Lemma shiftr_anti x a b : 0 <= x -> 0 <= a <= b -> Z.shiftr x b <= Z.shiftr x a.
Proof.
  intros Hx [Ha Hab]. rewrite !Z.shiftr_div_pow2 by lia.
  apply Z.div_le_compat_l; [exact Hx|]. split; [apply Z.pow_pos_nonneg; lia|].
  apply Z.pow_le_mono_r; lia.
Qed.

(** * frame reasoning over the outcome monad *)
(* error returns count as normal ones do: [block_phase] keeps the writes of both *)
Definition presAt {A} (R : State -> State -> Prop) (m : M A) (s : State) : Prop :=
  match m s with Ok _ s' | Err _ s' => R s s' | _ => True end.

Definition same3 (s s' : State) : Prop :=
  pledges s' = pledges s /\ pool s' = pool s /\ supply s' = supply s.

(* the class has the name of the module Proofs.Frame and nothing else in common with it *)
Class Frame (R : State -> State -> Prop) : Prop := {
  R_trans : forall s1 s2 s3, R s1 s2 -> R s2 s3 -> R s1 s3;
  R_same : forall s s', same3 s s' -> R s s' }.

Global Instance Frame_same3 : Frame same3.
Proof.
  split.
  - intros s1 s2 s3 (A1 & A2 & A3) (B1 & B2 & B3). unfold same3. repeat split; congruence.
  - auto.
Qed.

Definition okpost {A} (Q : A -> State -> Prop) (m : M A) (s : State) : Prop :=
  match m s with Ok a s' => Q a s' | _ => True end.
Lemma okpost_true {A} (m : M A) s : okpost (fun _ _ => True) m s.
Proof. unfold okpost. destruct (m s); exact I. Qed.
Lemma okpost_bind {A B} (Q1 : A -> State -> Prop) (Q : B -> State -> Prop) (m : M A) (k : A -> M B) s :
  okpost Q1 m s -> (forall a s1, Q1 a s1 -> okpost Q (k a) s1) -> okpost Q (bind m k) s.
Proof. unfold okpost, bind. intros Hm Hk. destruct (m s); auto. apply Hk, Hm. Qed.
Lemma okpost_bind_get {A} (Q : A -> State -> Prop) (k : State -> M A) s : okpost Q (k s) s -> okpost Q (bind get k) s.
Proof. intros Hk. exact Hk. Qed.

Section frame.
  Context {R : State -> State -> Prop} `{HF : Frame R}.

  Lemma R_refl s : R s s.
  Proof. apply R_same. repeat split. Qed.

  Lemma R_same' s s' : pledges s' = pledges s -> pool s' = pool s -> supply s' = supply s -> R s s'.
  Proof. intros. apply R_same. repeat split; assumption. Qed.

  Lemma presAt_ret {A} (a : A) s : presAt R (ret a) s.
  Proof. apply R_refl. Qed.
  Lemma presAt_fail {A} e s : presAt R (@fail A e) s.
  Proof. apply R_refl. Qed.
  Lemma presAt_panic {A} e s : presAt R (@panic A e) s.
  Proof. exact I. Qed.
  Lemma presAt_get s : presAt R get s.
  Proof. apply R_refl. Qed.
  Lemma presAt_bind_get {A} (k : State -> M A) s : presAt R (k s) s -> presAt R (bind get k) s.
  Proof. intros Hk. exact Hk. Qed.
  Lemma presAt_bind_ret {A B} (a : A) (k : A -> M B) s : presAt R (k a) s -> presAt R (bind (ret a) k) s.
  Proof. intros Hk. exact Hk. Qed.
  Lemma presAt_bind {A B} (m : M A) (k : A -> M B) s :
    presAt R m s -> (forall a s', presAt R (k a) s') -> presAt R (bind m k) s.
  Proof.
    unfold presAt, bind. intros Hm Hk. destruct (m s) as [a s1|e s1|e|]; auto.
    specialize (Hk a s1). destruct (k a s1) as [b s2|e s2|e|]; auto; eapply R_trans; eauto.
  Qed.
  Lemma presAt_bind_post {A B} (Q : A -> State -> Prop) (m : M A) (k : A -> M B) s :
    presAt same3 m s -> okpost Q m s -> (forall a s', same3 s s' -> Q a s' -> presAt R (k a) s') ->
    presAt R (bind m k) s.
  Proof.
    unfold presAt, okpost, bind. intros Hm HQ Hk. destruct (m s) as [a s1|e s1|e|]; auto.
    - specialize (Hk a s1 Hm HQ). destruct (k a s1) as [b s2|e s2|e|]; auto;
        (eapply R_trans; [apply R_same; exact Hm|exact Hk]).
    - apply R_same; exact Hm.
  Qed.
  Lemma presAt_bind_keep {A B} (m : M A) (k : A -> M B) s :
    presAt same3 m s -> (forall a s', same3 s s' -> presAt R (k a) s') -> presAt R (bind m k) s.
  Proof. intros Hm Hk. apply (presAt_bind_post (fun _ _ => True) m k s Hm (okpost_true m s)). auto. Qed.
  Lemma presAt_modify f s : R s (f s) -> presAt R (modify f) s.
  Proof. intros Hf. exact Hf. Qed.
  Lemma presAt_if {A} (b : bool) (m1 m2 : M A) s :
    presAt R m1 s -> presAt R m2 s -> presAt R (if b then m1 else m2) s.
  Proof. destruct b; auto. Qed.
  Lemma presAt_option {A B} (o : option A) (f : A -> M B) (m : M B) s :
    (forall a, o = Some a -> presAt R (f a) s) -> (o = None -> presAt R m s) ->
    presAt R (match o with Some a => f a | None => m end) s.
  Proof. destruct o; auto. Qed.
  Lemma presAt_let {A B} (v : A) (f : A -> M B) s :
    (forall x, presAt R (f x) s) -> presAt R (let x := v in f x) s.
  Proof. intros Hf. apply Hf. Qed.
  Lemma presAt_try {A} (m : M A) s : presAt R m s -> presAt R (try_ m) s.
  Proof. unfold presAt, try_. destruct (m s); auto. Qed.
  Lemma presAt_forM {A} (l : list A) (f : A -> M unit) :
    (forall x s, presAt R (f x) s) -> forall s, presAt R (forM l f) s.
  Proof.
    intros Hf. induction l as [|x l IH]; intros s; simpl.
    - apply presAt_ret.
    - apply presAt_bind; [apply Hf|]. intros _ s'. apply IH.
  Qed.
End frame.

(* what a frame must provide for the handlers that reach a pledge through ShardPledge and ShardRelease;
   [R_bump] is the renewal top-up of [pl_shpledged] in [renew_one] *)
Class FramePl (R : State -> State -> Prop) `{Frame R} : Prop := {
  R_shard_pledge : forall id sh price s, presAt R (shard_pledge id sh price) s;
  R_shard_release : forall sp sh s, presAt R (shard_release sp sh) s;
  R_bump : forall s k p x, pledges s !! k = Some p -> R s (s <| pledges ::= <[k := p <| pl_shpledged := x |>]> |>) }.

Create HintDb presdb.
Global Hint Resolve Frame_same3 : presdb.

(* a handler is opened with [cbv delta [f]], not [unfold f], which would expand every [let]:
   a let-bound value is replaced by a variable here, a let-bound computation is put in *)
Ltac pstep :=
  cbv beta;
  match goal with
  | |- presAt _ (ret _) _ => apply presAt_ret
  | |- presAt _ (fail _) _ => apply presAt_fail
  | |- presAt _ (panic _) _ => apply presAt_panic
  | |- presAt _ (fun _ => Hang) _ => exact I
  | |- presAt ?R (bind get ?k) ?s => refine (presAt_bind_get (R:=R) k s _)
  | |- presAt ?R (bind ?m ?k) ?s => refine (presAt_bind (R:=R) m k s _ _); [|intros ? ?]
  | |- presAt _ (try_ _) _ => apply presAt_try
  | |- presAt _ (forM _ _) _ => apply presAt_forM; intros ? ?
  | |- presAt _ (modify _) _ => apply presAt_modify; apply R_same'; reflexivity
  | |- presAt _ (shard_pledge _ _ _) _ => apply R_shard_pledge
  | |- presAt _ (shard_release _ _) _ => apply R_shard_release
  | |- presAt ?R (let x := ?v in @?f x) ?s =>
      lazymatch type of v with
      | context [M _] => change (presAt R (f v) s)
      | _ => refine (presAt_let (R:=R) v f s _); intro
      end
  | |- presAt _ (let '(_, _) := ?x in _) _ => destruct x
  | |- presAt ?R (if ?b then ?m1 else ?m2) ?s =>
      lazymatch type of b with bool => refine (presAt_if (R:=R) b m1 m2 s _ _) end
  | |- presAt ?R (match ?o with Some a => @?f a | None => ?m end) ?s =>
      refine (presAt_option (R:=R) o f m s _ _); intros
  | |- presAt _ (match ?x with _ => _ end) _ => destruct x eqn:?
  | |- presAt _ _ _ => solve [auto 2 with presdb]
  end.
(* string literals (error messages mostly) become variables: a proof term holds every later part
   of a handler many times over, and a literal is a large term *)
Ltac hide_strings :=
  repeat match goal with |- context [String ?a ?b] =>
    let msg := fresh "msg" in generalize (String a b); intro msg end.
Ltac psolve := hide_strings; repeat pstep.

(* names the value of the outermost [let] of the goal, where a proof needs the values *)
Ltac name_let x :=
  lazymatch goal with |- context C [let y := ?v in @?f y] =>
    set (x := v); let g := context C [f x] in change g; cbv beta end.

(** ** handlers that never touch pledges, pool or supply (for any frame) *)
Section leaves.
  Context {R : State -> State -> Prop} `{HF : Frame R}.

  Lemma p_send_strict f t a s : presAt R (send_strict f t a) s.
  Proof.
    unfold presAt, send_strict. destruct (a <=? 0); [apply R_refl|].
    destruct (_ <? _); [apply R_refl|]. apply R_same'; reflexivity.
  Qed.
  Lemma p_send_lenient f t a s : presAt R (send_lenient f t a) s.
  Proof. unfold presAt, send_lenient. destruct (a =? 0); [apply R_refl|]. apply p_send_strict. Qed.
  Lemma p_coin_sub a b s : presAt R (coin_sub a b) s.
  Proof. cbv delta [coin_sub]. psolve. Qed.
  Hint Resolve p_send_strict p_send_lenient p_coin_sub : presdb.

  Lemma p_do_penalty s : presAt R do_penalty s.
  Proof. cbv delta [do_penalty]. psolve. Qed.
  Hint Resolve p_do_penalty : presdb.
  Lemma p_end_block_node cx s : presAt R (end_block_node cx) s.
  Proof. cbv delta [end_block_node]. psolve. Qed.
  Lemma p_node_create cx c s : presAt R (node_create cx c) s.
  Proof. cbv delta [node_create]. psolve. Qed.
  Lemma p_node_reset cx m s : presAt R (node_reset cx m) s.
  Proof. cbv delta [node_reset]. psolve. Qed.
  Lemma p_repay_debt sp rw s : presAt R (repay_debt sp rw) s.
  Proof. cbv delta [repay_debt]. psolve. Qed.
  Lemma p_market_claim cx sp s : presAt R (market_claim cx sp) s.
  Proof. cbv delta [market_claim]. psolve. Qed.
  Lemma p_increase_reputation n v s : presAt R (increase_reputation n v) s.
  Proof. cbv delta [increase_reputation]. psolve. Qed.
  Lemma p_random_sp_m cx c ig sz s : presAt R (random_sp_m cx c ig sz) s.
  Proof. cbv delta [random_sp_m]. psolve. Qed.
  Hint Resolve p_end_block_node p_node_create p_node_reset p_repay_debt p_market_claim p_increase_reputation
       p_random_sp_m : presdb.

  Lemma p_send_to_did_balances m d a s : presAt R (send_to_did_balances m d a) s.
  Proof. cbv delta [send_to_did_balances]. psolve. Qed.
  Lemma p_worker_release cx o sh s : presAt R (worker_release cx o sh) s.
  Proof. cbv delta [worker_release]. psolve. Qed.
  Lemma p_worker_append cx o sh s : presAt R (worker_append cx o sh) s.
  Proof. cbv delta [worker_append]. psolve. Qed.
  Lemma p_market_deposit o s : presAt R (market_deposit o) s.
  Proof. cbv delta [market_deposit]. psolve. Qed.
  Hint Resolve p_send_to_did_balances p_worker_release p_worker_append p_market_deposit : presdb.

  Lemma p_market_withdraw cx oid o s : presAt R (market_withdraw cx oid o) s.
  Proof.
    unfold market_withdraw. destruct (o_amount o =? 0); [psolve|].
    cbv zeta. hide_strings. revert s.
    (* the refund is the accumulator of the loop over the shards: a variable for the induction *)
    generalize (dec_of_int (o_amount o) -
      dec_mul_int (dec_mul_int (dec_mul_int (o_price o) (i64 (o_size o))) (i64 (o_replica o))) (i64 (o_duration o))).
    generalize (o_shards o) as ids.
    induction ids as [|id rest IH]; intros refund s.
    - psolve.
    - psolve; apply IH.
  Qed.
  Lemma p_append_order o s : presAt R (append_order o) s.
  Proof. cbv delta [append_order]. psolve. Qed.
  Lemma p_append_shard sh s : presAt R (append_shard sh) s.
  Proof. cbv delta [append_shard]. psolve. Qed.
  Hint Resolve p_market_withdraw p_append_order p_append_shard : presdb.
  Lemma p_new_shard_task oid o pr s : presAt R (new_shard_task oid o pr) s.
  Proof. cbv delta [new_shard_task]. psolve. Qed.
  Hint Resolve p_new_shard_task : presdb.
  Lemma p_gen_shards oid sps : forall o s, presAt R (gen_shards oid o sps) s.
  Proof. induction sps as [|sp rest IH]; intros o s; simpl; psolve. Qed.
  Hint Resolve p_gen_shards : presdb.
  Lemma p_generate_shards oid o sps s : presAt R (generate_shards oid o sps) s.
  Proof. cbv delta [generate_shards]. psolve. Qed.
  Hint Resolve p_generate_shards : presdb.
  Lemma p_new_order cx o sps s : presAt R (new_order cx o sps) s.
  Proof. cbv delta [new_order]. psolve. Qed.
  Lemma p_renew_order o s : presAt R (renew_order o) s.
  Proof. cbv delta [renew_order]. psolve. Qed.
  Lemma p_order_terminate oid r s : presAt R (order_terminate oid r) s.
  Proof. cbv delta [order_terminate]. psolve. Qed.
  Lemma p_refund_order oid s : presAt R (refund_order oid) s.
  Proof. cbv delta [refund_order]. psolve. Qed.
  Lemma p_set_data_expire d a s : presAt R (set_data_expire d a) s.
  Proof. cbv delta [set_data_expire]. psolve. Qed.
  Lemma p_remove_data_expire d a s : presAt R (remove_data_expire d a) s.
  Proof. cbv delta [remove_data_expire]. psolve. Qed.
  Hint Resolve p_new_order p_renew_order p_order_terminate p_refund_order p_set_data_expire p_remove_data_expire : presdb.
  Lemma p_new_meta cx o d m s : presAt R (new_meta cx o d m) s.
  Proof. cbv delta [new_meta]. psolve. Qed.
  Lemma p_reset_meta_duration cx d m s : presAt R (reset_meta_duration cx d m) s.
  Proof. cbv delta [reset_meta_duration]. psolve. Qed.
  Lemma p_extend_meta_duration d e s : presAt R (extend_meta_duration d e) s.
  Proof. cbv delta [extend_meta_duration]. psolve. Qed.
  Lemma p_delete_meta d s : presAt R (delete_meta d) s.
  Proof. cbv delta [delete_meta]. psolve. Qed.
  Lemma p_remove_shards ids s : presAt R (remove_shards ids) s.
  Proof. cbv delta [remove_shards]. psolve. Qed.
  Hint Resolve p_new_meta p_reset_meta_duration p_extend_meta_duration p_delete_meta p_remove_shards : presdb.
  Lemma p_update_meta_status_commit cx oid o s : presAt R (update_meta_status_commit cx oid o) s.
  Proof. cbv delta [update_meta_status_commit]. psolve. Qed.
  Lemma p_rollback_meta cx d s : presAt R (rollback_meta cx d) s.
  Proof. cbv delta [rollback_meta]. psolve. Qed.
  Hint Resolve p_update_meta_status_commit p_rollback_meta : presdb.
  Lemma p_cancel_order cx oid s : presAt R (cancel_order cx oid) s.
  Proof. cbv delta [cancel_order]. psolve. Qed.
  Lemma p_update_permission o d ro rw s : presAt R (update_permission o d ro rw) s.
  Proof. cbv delta [update_permission]. psolve. Qed.
  Lemma p_end_block_model cx s : presAt R (end_block_model cx) s.
  Proof. cbv delta [end_block_model]. psolve. Qed.
  Hint Resolve p_cancel_order p_update_permission p_end_block_model : presdb.

  Lemma p_set_timeout_block o h s : presAt R (set_timeout_block o h) s.
  Proof. cbv delta [set_timeout_block]. psolve. Qed.
  Lemma p_set_expired_shard_block o h s : presAt R (set_expired_shard_block o h) s.
  Proof. cbv delta [set_expired_shard_block]. psolve. Qed.
  Lemma p_get_sps cx o d s : presAt R (get_sps cx o d) s.
  Proof. cbv delta [get_sps]. psolve. Qed.
  Hint Resolve p_set_timeout_block p_set_expired_shard_block p_get_sps : presdb.
  Lemma p_sao_store cx m s : presAt R (sao_store cx m) s.
  Proof. cbv delta [sao_store]. psolve. Qed.
  Lemma p_sao_ready cx c p o s : presAt R (sao_ready cx c p o) s.
  Proof. cbv delta [sao_ready]. psolve. Qed.
  Lemma p_migrate_one cx pr d s : presAt R (migrate_one cx pr d) s.
  Proof.
    unfold migrate_one. apply presAt_bind_get. destruct (metas s !! d) as [meta|]; [|psolve].
    hide_strings. revert s. generalize (@nil string) as commits. generalize (rev (m_orders meta)) as l.
    induction l as [|oid rest IH]; intros commits s.
    - psolve.
    - psolve; apply IH.
  Qed.
  Hint Resolve p_migrate_one : presdb.
  Lemma p_sao_migrate cx c p d s : presAt R (sao_migrate cx c p d) s.
  Proof. cbv delta [sao_migrate]. psolve. Qed.
  Lemma p_sao_update_permission cx c p ow d ro rw sg v s : presAt R (sao_update_permission cx c p ow d ro rw sg v) s.
  Proof. cbv delta [sao_update_permission]. psolve. Qed.
  Lemma p_set_fault k f s : presAt R (set_fault k f) s.
  Proof. cbv delta [set_fault]. psolve. Qed.
  Hint Resolve p_set_fault : presdb.
  Lemma p_sao_report_faults cx c p fl s : presAt R (sao_report_faults cx c p fl) s.
  Proof. cbv delta [sao_report_faults]. psolve. Qed.
  Lemma p_sao_recover_faults cx c p fl s : presAt R (sao_recover_faults cx c p fl) s.
  Proof. cbv delta [sao_recover_faults]. psolve. Qed.
  Lemma p_handle_timeout_order cx oid s : presAt R (handle_timeout_order cx oid) s.
  Proof.
    cbv delta [handle_timeout_order]. psolve.
    (* what is left is the local loop [go] at its first arguments: stated for all of them, by induction *)
    all: match goal with |- presAt _ (?f (combine ?a ?b) ?o) ?s =>
           cut (forall l' o' s', presAt R (f l' o') s'); [intros Hc; apply Hc|] end.
    all: intros l'; induction l' as [|[newsp [sid sh]] r IH]; intros oacc s1; [psolve|psolve; apply IH].
  Qed.
  Lemma p_set_role c r v s : presAt R (set_role c r v) s.
  Proof. (* the body of the [modify] is a match on the state: split before [R_same'] *)
    unfold set_role. apply presAt_modify. destruct (nodes s !! c); apply R_same'; reflexivity. Qed.
  Hint Resolve p_set_role : presdb.
  Lemma p_verify_super v a b s : presAt R (verify_super v a b) s.
  Proof.
    cbv delta [verify_super]. psolve.
    all: apply presAt_modify; destruct (pg _ =? 0); apply R_same'; reflexivity.
  Qed.
  Hint Resolve p_verify_super : presdb.
  Lemma p_st_event e s : presAt R (st_event e) s.
  Proof. unfold st_event. destruct e; psolve. Qed.
  Hint Resolve p_st_event : presdb.
  Lemma p_staking_tx evs s : presAt R (staking_tx evs) s.
  Proof. cbv delta [staking_tx]. psolve. Qed.
  Lemma p_lift_did cx o s : presAt R (lift_did cx o) s.
  Proof. unfold presAt, lift_did. destruct (did_handle _ _ _); [apply R_refl|apply R_same'; reflexivity]. Qed.
End leaves.
Global Hint Resolve p_send_strict p_send_lenient p_coin_sub p_do_penalty p_end_block_node p_node_create p_node_reset
  p_repay_debt p_market_claim p_increase_reputation p_random_sp_m p_send_to_did_balances p_worker_release
  p_worker_append p_market_deposit p_market_withdraw p_append_order p_append_shard p_new_shard_task p_gen_shards
  p_generate_shards p_new_order p_renew_order p_order_terminate p_refund_order p_set_data_expire
  p_remove_data_expire p_new_meta p_reset_meta_duration p_extend_meta_duration p_delete_meta p_remove_shards
  p_update_meta_status_commit p_rollback_meta p_cancel_order p_update_permission p_end_block_model
  p_set_timeout_block p_set_expired_shard_block p_get_sps p_sao_store p_sao_ready p_migrate_one p_sao_migrate
  p_sao_update_permission p_set_fault p_sao_report_faults p_sao_recover_faults p_handle_timeout_order p_set_role
  p_verify_super p_st_event p_staking_tx p_lift_did : presdb.

(** ** handlers that reach pledges only through ShardPledge, ShardRelease and the renewal top-up *)

Section composite.
  Context {R : State -> State -> Prop} `{HP : FramePl R}.

  Lemma p_model_terminate_order cx oid o s : presAt R (model_terminate_order cx oid o) s.
  Proof. cbv delta [model_terminate_order]. psolve. Qed.
  Hint Resolve p_model_terminate_order : presdb.
  Lemma p_force_push_loop cx lc l : forall acc s, presAt R (force_push_loop cx l lc acc) s.
  Proof. induction l as [|oid rest IH]; intros acc s; simpl; psolve. Qed.
  Hint Resolve p_force_push_loop : presdb.
  Lemma p_update_meta cx oid o s : presAt R (update_meta cx oid o) s.
  Proof. cbv delta [update_meta]. psolve. Qed.
  Hint Resolve p_update_meta : presdb.
  Lemma p_complete_migration cx oid o sid sh s : presAt R (complete_migration cx oid o sid sh) s.
  Proof. cbv delta [complete_migration]. psolve. Qed.
  Hint Resolve p_complete_migration : presdb.
  Lemma p_sao_complete cx c p oid cid sz ok s : presAt R (sao_complete cx c p oid cid sz ok) s.
  Proof. cbv delta [sao_complete]. psolve. Qed.
  Lemma p_sao_cancel cx c p oid s : presAt R (sao_cancel cx c p oid) s.
  Proof. cbv delta [sao_cancel]. psolve. Qed.
  Lemma p_renew_one cx m sd d s : presAt R (renew_one cx m sd d) s.
  Proof.
    cbv delta [renew_one]. psolve.
    match goal with |- presAt _ (?f ?l 0) ?s =>
      cut (forall l' a' s', presAt R (f l' a') s'); [intros Hc; apply Hc|] end.
    intros l'; induction l' as [|[id sh] r IH]; intros a' s1; [psolve|].
    psolve; try apply IH.
    all: apply presAt_modify; apply R_bump; assumption.
  Qed.
  Hint Resolve p_renew_one : presdb.
  Lemma p_sao_renew cx m s : presAt R (sao_renew cx m) s.
  Proof. cbv delta [sao_renew]. psolve. Qed.
  Lemma p_sao_terminate cx c p ow d sg s : presAt R (sao_terminate cx c p ow d sg) s.
  Proof.
    cbv delta [sao_terminate]. psolve.
    match goal with |- presAt _ (?f ?l []) ?s =>
      cut (forall l' a' s', presAt R (f l' a') s'); [intros Hc; apply Hc|] end.
    intros l'; induction l' as [|oid r IH]; intros a' s1; [psolve|psolve; apply IH].
  Qed.
  Lemma p_handle_expired_shard cx sid s : presAt R (handle_expired_shard cx sid) s.
  Proof. cbv delta [handle_expired_shard]. psolve. Qed.
  Hint Resolve p_handle_expired_shard : presdb.
  Lemma p_end_block_sao cx s : presAt R (end_block_sao cx) s.
  Proof. cbv delta [end_block_sao]. psolve. Qed.
  Hint Resolve p_end_block_sao : presdb.
  Lemma p_end_block cx evs s : presAt R (end_block cx evs) s.
  Proof. cbv delta [end_block]. psolve. Qed.
End composite.

(** * the handlers that write a pledge: AddVstorage, RemoveVstorage, ShardPledge, ShardRelease *)
Lemma settle_total acc p : pl_total (settle acc p) = pl_total p.
Proof. unfold settle. destruct (0 <? pl_total p); reflexivity. Qed.
Lemma settle_spledged acc p : pl_spledged (settle acc p) = pl_spledged p.
Proof. unfold settle. destruct (0 <? pl_total p); reflexivity. Qed.
Lemma settle_reward acc p :
  (pl_total p <= 0 -> pending acc p = 0) -> pl_reward (settle acc p) = claimable acc p.
Proof.
  unfold settle, claimable. intros Hp. destruct (0 <? pl_total p) eqn:E.
  - reflexivity.
  - rewrite Hp by lia. lia.
Qed.


(* how the stake [dS] and the capacity [dT] of a pledge move together: [a] coins buy or give back their storage.
   [sp'] is the stake afterwards: a withdrawal leaves it non-negative (what BeginLive.Inv_k needs) *)
Definition stake_moves (dT dS sp' : Z) : Prop :=
  exists a, 0 <= a /\ ((dS = a /\ dT = dec_trunc (dec_quo (dec_of_int a) PRICE)) \/
                       (dS = - a /\ dT = - dec_trunc (dec_ceil (dec_quo (dec_of_int a) PRICE)) /\ 0 <= sp')).

(* what AddVstorage, RemoveVstorage, ShardPledge and ShardRelease do to the accounting: pledge [k] is settled and
   written back with its debt recomputed, its capacity and stake moved by [dT] and [dS], and the pool totals with them *)
Definition rewrites (s s' : State) : Prop :=
  exists k p' po po' dT dS,
    let old := pledges s !! k in let acc := po_accreward po in
    (pledges s' = <[k:=p']> (pledges s) /\ pool s = Some po /\ pool s' = Some po' /\ supply s' = supply s) /\
    (po_accreward po' = acc /\ po_reward po' = po_reward po /\
     po_storage po' = po_storage po + dT /\ po_pledged po' = po_pledged po + dS) /\
    (pl_total p' = from_option pl_total 0 old + dT /\ pl_spledged p' = from_option pl_spledged 0 old + dS /\
     pl_rdebt p' = dec_mul_int acc (pl_total p') /\
     pl_reward p' = from_option (fun p => pl_reward (settle acc p)) 0 old /\
     stake_moves dT dS (pl_spledged p')).

Lemma settle_reward_stake acc p x : pl_reward (settle acc (p <| pl_spledged := x |>)) = pl_reward (settle acc p).
Proof. unfold settle, pending. cbn. destruct (0 <? pl_total p); reflexivity. Qed.

Lemma stake_moves_0 x : stake_moves 0 0 x.
Proof. exists 0. split; [lia|]. left. split; reflexivity. Qed.

Section writers.
  Context {R : State -> State -> Prop} `{HF : Frame R} (Hrw : forall s s', rewrites s s' -> R s s').

  Lemma w_add_vstorage c sz s : presAt R (add_vstorage c sz) s.
  Proof.
    cbv delta [add_vstorage]. hide_strings. apply presAt_bind_get.
    destruct (nodes s !! c) as [n|] eqn:Hn; [|psolve].
    destruct (pool s) as [po|] eqn:Hpo; [|psolve].
    name_let amount. name_let cap.
    match goal with |- presAt _ (if ?b then _ else _) _ => destruct b eqn:Eneg; [exact I|] end.
    apply presAt_bind_keep; [apply p_send_strict|]. intros _ s1 Hs1.
    name_let p0. name_let acc. name_let p1. name_let p2. name_let p3. name_let po'.
    apply presAt_bind_keep; [psolve|]. intros _ s2 Hs2.
    pose proof (R_trans _ _ _ Hs1 Hs2) as (Hpl & Hpool & Hsup).
    apply presAt_modify, Hrw. exists c, p3, po, po', cap, amount. rewrite Hpl.
    assert (E0 : pl_total p0 = from_option pl_total 0 (pledges s !! c) /\
                 pl_spledged p0 = from_option pl_spledged 0 (pledges s !! c) + amount /\
                 pl_reward p1 = from_option (fun p => pl_reward (settle acc p)) 0 (pledges s !! c)).
    { subst p1 p0. destruct (pledges s !! c) as [p|]; cbn; [rewrite settle_reward_stake|]; repeat split; lia. }
    destruct E0 as (E1 & E2 & E3).
    repeat split; try reflexivity; try congruence.
    - cbn. congruence.
    - subst p3 p2 p1. cbn. rewrite settle_total. lia.
    - subst p3 p2 p1. cbn. rewrite settle_spledged. lia.
    - exact E3.
    - exists amount. split; [lia|]. left. split; reflexivity.
  Qed.

  Lemma w_remove_vstorage c sz s : presAt R (remove_vstorage c sz) s.
  Proof.
    cbv delta [remove_vstorage]. hide_strings. apply presAt_bind_get.
    destruct (nodes s !! c) as [n|] eqn:Hn; [|psolve].
    destruct (pool s) as [po|] eqn:Hpo; [|psolve].
    destruct (pledges s !! c) as [p|] eqn:Hp; [|psolve].
    name_let amount. apply presAt_if; [psolve|]. name_let cap. apply presAt_if; [psolve|].
    match goal with |- presAt _ (if ?b then _ else _) _ => destruct b eqn:Eneg; [exact I|] end.
    cbv beta delta [coin_sub].
    match goal with |- presAt _ (bind (if ?b then _ else _) _) _ => destruct b eqn:Esub; [exact I|] end.
    apply presAt_bind_ret.
    apply presAt_bind_keep; [apply p_send_strict|]. intros _ s1 Hs1.
    name_let acc. name_let p1. name_let p2. name_let p3. name_let po'.
    apply presAt_bind_keep; [psolve|]. intros _ s2 Hs2.
    pose proof (R_trans _ _ _ Hs1 Hs2) as (Hpl & Hpool & Hsup).
    apply presAt_modify, Hrw. exists c, p3, po, po', (- cap), (- amount). rewrite Hpl, Hp.
    repeat split; try reflexivity; try congruence.
    - cbn. congruence.
    - subst p3 p2 p1. cbn. rewrite settle_total. reflexivity.
    - subst p3 p2 p1. cbn. rewrite settle_spledged. cbn. lia.
    - apply settle_reward_stake.
    - exists amount. split; [lia|]. right. subst p3 p2 p1. cbn. rewrite settle_spledged. cbn. repeat split; lia.
  Qed.

  Lemma w_shard_pledge id sh price s : presAt R (shard_pledge id sh price) s.
  Proof.
    cbv delta [shard_pledge]. hide_strings. apply presAt_bind_get.
    destruct (pledges s !! sh_sp sh) as [p|] eqn:Hp; [|psolve].
    destruct (pool s) as [po|] eqn:Hpo; [|psolve].
    name_let acc. name_let p1. apply presAt_if; [psolve|]. name_let base. apply presAt_if; [exact I|].
    name_let sp0. name_let spl. name_let p2.
    apply presAt_bind_keep; [psolve|]. intros _ s1 (Hpl & Hpool & Hsup).
    name_let sh'. name_let p3.
    apply presAt_bind; [|intros; apply presAt_ret].
    apply presAt_modify, Hrw. exists (sh_sp sh), p3, po, po, 0, 0. rewrite Hpl, Hp.
    repeat split; try reflexivity; try congruence; try lia.
    - cbn. congruence.
    - change (pool s1 = Some po). congruence.
    - subst p3 p2 p1. cbn. rewrite settle_total. lia.
    - subst p3 p2 p1. cbn. rewrite settle_spledged. lia.
    - apply stake_moves_0.
  Qed.

  Lemma w_shard_release sp sh s : presAt R (shard_release sp sh) s.
  Proof.
    cbv delta [shard_release]. hide_strings. apply presAt_bind_get.
    destruct (pledges s !! sp) as [p|] eqn:Hp; [|psolve].
    destruct (pool s) as [po|] eqn:Hpo; [|psolve].
    name_let acc. name_let p1.
    apply (presAt_bind_post (fun p2 _ => pl_total p2 = pl_total p1 /\ pl_spledged p2 = pl_spledged p1 /\
                                          pl_reward p2 = pl_reward p1)); [psolve| |].
    { destruct sh as [sh|]; [|repeat split].
      eapply okpost_bind; [apply okpost_true|]. intros rw s1 _.
      eapply okpost_bind; [apply okpost_true|]. intros _ s2 _.
      unfold coin_sub. destruct (_ <? 0); [exact I|]. cbn. auto. }
    intros p2 s1 (Hpl & Hpool & Hsup) (Q1 & Q2 & Q3). name_let p3.
    apply presAt_modify, Hrw. exists sp, p3, po, po, 0, 0. rewrite Hpl, Hp.
    repeat split; try reflexivity; try congruence; try lia.
    - cbn. congruence.
    - change (pool s1 = Some po). congruence.
    - subst p3 p1. cbn. rewrite Q1, settle_total. lia.
    - subst p3 p1. cbn. rewrite Q2, settle_spledged. lia.
    - exact Q3.
    - apply stake_moves_0.
  Qed.
End writers.

(** * the accumulator relation *)
(* a provider without capacity has nothing pending (its debt matches the accumulator).
   [settle] skips such a provider and the callers then overwrite its debt, so this is what
   makes the overwrite harmless. Every handler establishes it for the pledge it writes. *)
Definition Settled (s : State) : Prop :=
  forall po k p, pool s = Some po -> pledges s !! k = Some p -> pl_total p <= 0 ->
                 pending (po_accreward po) p = 0.

(* the second hypothesis of C08, needed where a block begins: see [bb_settled] *)
Definition Nonneg (s : State) : Prop := forall k p, pledges s !! k = Some p -> 0 <= pl_total p.

Definition Rc (s s' : State) : Prop :=
  supply s' = supply s /\ (Inv_pool s -> Inv_pool s') /\ (Settled s -> Settled s' /\ phi s' = phi s).

Lemma Inv_pool_same s s' : pledges s' = pledges s -> pool s' = pool s -> Inv_pool s -> Inv_pool s'.
Proof. unfold Inv_pool. intros -> ->. auto. Qed.
Lemma Settled_same s s' : pledges s' = pledges s -> pool s' = pool s -> Settled s -> Settled s'.
Proof. unfold Settled. intros -> ->. auto. Qed.
Lemma phi_same s s' : pledges s' = pledges s -> pool s' = pool s -> phi s' = phi s.
Proof. unfold phi. intros -> ->. reflexivity. Qed.

Global Instance Frame_Rc : Frame Rc.
Proof.
  split.
  - intros s1 s2 s3 (A1 & A2 & A3) (B1 & B2 & B3). split; [congruence|]. split; [auto|].
    intros HS. destruct (A3 HS) as [HS2 E2]. destruct (B3 HS2) as [HS3 E3]. split; [exact HS3|congruence].
  - intros s s' (E1 & E2 & E3). split; [exact E3|]. split; [apply Inv_pool_same; assumption|].
    intros HS. split; [eapply Settled_same; eassumption|apply phi_same; assumption].
Qed.

Lemma Rc_pool_none s s' : pool s = None -> pool s' = None -> supply s' = supply s -> Rc s s'.
Proof.
  intros H1 H2 H3. split; [exact H3|]. split.
  - intros _ po Hpo. congruence.
  - intros _. split; [intros po k p Hpo; congruence|]. unfold phi. rewrite H1, H2. reflexivity.
Qed.

Lemma Rc_update s s' po po' k old p' :
  pool s = Some po -> pool s' = Some po' -> supply s' = supply s ->
  pledges s !! k = old -> pledges s' = <[k:=p']> (pledges s) ->
  po_accreward po' = po_accreward po ->
  po_storage po' = po_storage po + (pl_total p' - from_option pl_total 0 old) ->
  po_pledged po' = po_pledged po + (pl_spledged p' - from_option pl_spledged 0 old) ->
  ((forall p, old = Some p -> pl_total p <= 0 -> pending (po_accreward po) p = 0) ->
     claimable (po_accreward po) p' = from_option (claimable (po_accreward po)) 0 old /\
     (pl_total p' <= 0 -> pending (po_accreward po) p' = 0)) ->
  Rc s s'.
Proof.
  intros Hpo Hpo' Hsup Hold Hpl Hacc Hst Hpg Hcl. split; [exact Hsup|]. split.
  - intros HI po'' Hpo''. rewrite Hpo' in Hpo''. injection Hpo'' as <-.
    destruct (HI po Hpo) as [H1 H2]. rewrite Hpl, !sum_map_insert, Hold. unfold from_option in *. split; lia.
  - intros HS.
    assert (Hk : forall p, old = Some p -> pl_total p <= 0 -> pending (po_accreward po) p = 0).
    { intros p Hp. subst old. apply (HS po k p Hpo Hp). }
    destruct (Hcl Hk) as [Hc1 Hc2]. split.
    + intros po'' k' q Hpo'' Hq Hle. rewrite Hpo' in Hpo''. injection Hpo'' as <-.
      rewrite Hacc. rewrite Hpl in Hq. destruct (decide (k' = k)) as [->|Hne].
      * rewrite lookup_insert in Hq. injection Hq as <-. auto.
      * rewrite lookup_insert_ne in Hq by congruence. apply (HS po k' q Hpo Hq Hle).
    + unfold phi. rewrite Hpo, Hpo', Hacc, Hpl, sum_map_insert, Hold. unfold from_option in *. lia.
Qed.

Lemma rewrites_Rc s s' : rewrites s s' -> Rc s s'.
Proof.
  intros (k & p' & po & po' & dT & dS & (Hpl & Hpo & Hpo' & Hsup) & (Hacc & _ & Hst & Hpg) & (Ht & Hs & Hd & Hr & _)).
  apply (Rc_update s s' po po' k (pledges s !! k) p'); try assumption; try reflexivity; try lia.
  intros Hk. unfold claimable at 1, pending. rewrite Hd, Hr. split; [|lia].
  destruct (pledges s !! k) as [p|]; cbn; [|lia]. rewrite settle_reward by (apply Hk; reflexivity). lia.
Qed.

Lemma Rc_bump s k p x :
  pledges s !! k = Some p -> Rc s (s <| pledges ::= <[k := p <| pl_shpledged := x |>]> |>).
Proof.
  intros Hp. destruct (pool s) as [po|] eqn:Hpo.
  - eapply (Rc_update s _ po po k (Some p)); try reflexivity; try assumption.
    + cbn. lia.
    + cbn. lia.
    + intros Hk. split; [reflexivity|]. intros Hle. apply (Hk p); [reflexivity|exact Hle].
  - apply Rc_pool_none; [exact Hpo|exact Hpo|reflexivity].
Qed.

Global Instance FramePl_Rc : FramePl Rc.
Proof. split; [apply (w_shard_pledge rewrites_Rc)|apply (w_shard_release rewrites_Rc)|apply Rc_bump]. Qed.

(** * whole-application steps *)
Lemma deliver_R R `{Frame R} {A} (m : M A) s : presAt R m s -> R s (deliver m s).1.1.
Proof.
  unfold presAt, deliver. destruct (m s); simpl; intros Hm; auto; try apply R_refl.
  apply R_same'; reflexivity.
Qed.
Lemma block_phase_R R `{Frame R} {A} (m : M A) s : presAt R m s -> R s (block_phase m s).1.1.
Proof. unfold presAt, block_phase. destruct (m s); simpl; intros Hm; auto; apply R_refl. Qed.

Lemma step_tx cx s op m : tx_of cx op = Some m -> fst (step cx s op) = (deliver m s).1.1.
Proof.
  destruct op; simpl; intros E; try discriminate; injection E as <-;
    match goal with |- context [deliver ?m s] => destruct (deliver m s) as [[? ?] ?] end; reflexivity.
Qed.
Lemma step_end_block cx s evs : fst (step cx s (OEndBlock evs)) = (block_phase (end_block cx evs) s).1.1.
Proof. simpl. destruct (block_phase _ s) as [[? ?] ?]. reflexivity. Qed.
Lemma step_begin_block cx s : fst (step cx s OBeginBlock) = (block_phase (begin_block cx) s).1.1.
Proof. simpl. destruct (block_phase _ s) as [[? ?] ?]. reflexivity. Qed.

Lemma step_other_R R `{FramePl R} cx s op :
  (forall s s', rewrites s s' -> R s s') ->
  op <> OBeginBlock -> (forall c, op <> OClaimReward c) -> R s (fst (step cx s op)).
Proof.
  intros Hrw Hb Hc.
  destruct (tx_of cx op) as [m|] eqn:Htx.
  - rewrite (step_tx cx s op m Htx). apply (deliver_R R).
    destruct op; simpl in Htx; try discriminate; injection Htx as <-.
    + apply p_lift_did.
    + apply p_node_create.
    + apply p_node_reset.
    + apply (w_add_vstorage Hrw).
    + apply (w_remove_vstorage Hrw).
    + exfalso. eapply Hc. reflexivity.
    + apply p_sao_store.
    + apply p_sao_ready.
    + apply p_sao_complete.
    + apply p_sao_cancel.
    + apply p_sao_renew.
    + apply p_sao_terminate.
    + apply p_sao_migrate.
    + apply p_sao_update_permission.
    + apply p_sao_report_faults.
    + apply p_sao_recover_faults.
    + apply p_send_strict.
    + apply p_staking_tx.
  - destruct op; simpl in Htx; try discriminate.
    + contradiction.
    + rewrite step_end_block. apply (block_phase_R R). apply p_end_block.
    + simpl. pose proof (p_staking_tx (R:=R) evs s) as Hs. unfold presAt in Hs.
      destruct (staking_tx evs s); simpl; try apply R_refl; apply R_same'; reflexivity.
Qed.

Lemma step_other_Rc cx s op :
  op <> OBeginBlock -> (forall c, op <> OClaimReward c) -> Rc s (fst (step cx s op)).
Proof. apply (step_other_R Rc), rewrites_Rc. Qed.

(** ** BeginBlock *)
(* [m]: the coins minted, at most the subsidy of the current age; the accumulator grows by [m] per unit of capacity *)
Definition bb_post (s s' : State) : Prop :=
  exists m, 0 <= m /\ supply s' = supply s + m /\ balance s' (macc NODE) = balance s (macc NODE) + m /\
    pledges s' = pledges s /\ nparams s' = nparams s /\ (0 <= np_reward (nparams s) -> m <= subsidy_cap s) /\
    match pool s with
    | None => pool s' = None /\ m = 0
    | Some po =>
        (po_pledged po = 0 -> m = 0) /\
        exists po', pool s' = Some po' /\ po_reward po' = po_reward po + m /\
          po_storage po' = po_storage po /\ po_pledged po' = po_pledged po /\
          ((m = 0 /\ po' = po) \/
           (po_storage po <> 0 /\ po_accreward po' = po_accreward po + Z.quot (dec_of_int m) (po_storage po)))
    end.

Lemma subsidy_cap_bounds s : 0 <= np_reward (nparams s) -> 0 <= subsidy_cap s <= np_reward (nparams s).
Proof.
  intros Hnp. unfold subsidy_cap. destruct (pool s); [|lia].
  split; [apply Z.shiftr_nonneg, Hnp|]. rewrite <- (Z.shiftr_0_r (np_reward _)) at 2.
  apply shiftr_anti; [exact Hnp|]. split; [lia|apply Z.log2_nonneg].
Qed.

Lemma bb_post_refl s : bb_post s s.
Proof.
  exists 0. repeat split; try lia; [apply subsidy_cap_bounds|].
  destruct (pool s) as [po|]; [|auto]. split; [auto|]. exists po. repeat split; try lia. left; auto.
Qed.

(* the reward by APY that replaces the subsidy below the baseline *)
Definition apy_reward (s : State) (po : Pool) : Z :=
  dec_trunc (dec_quo_int (dec_mul (dec_of_int (po_pledged po)) (np_apy (nparams s))) (np_halving (nparams s) / 2)).
Definition bb_panic_cause (s : State) (po : Pool) : Prop :=
  TOTAL_REWARD <= po_reward po \/ np_halving (nparams s) / 2 = 0 \/ np_reward (nparams s) < 0 \/
  apy_reward s po < 0 \/ (po_pledged po <> 0 /\ po_storage po = 0).

Lemma reward_age_spec p s :
  match reward_age p s with
  | Ok a s' => s' = s /\ a = halving_age p /\ po_reward p < TOTAL_REWARD
  | Panic _ => TOTAL_REWARD <= po_reward p
  | _ => False
  end.
Proof.
  unfold reward_age, halving_age, panic, ret.
  destruct (Z.ltb_spec (TOTAL_REWARD - po_reward p) 0); [lia|].
  destruct (Z.eqb_spec (TOTAL_REWARD - po_reward p) 0); [lia|].
  repeat split. lia.
Qed.

Lemma begin_block_spec cx s :
  match begin_block cx s with
  | Ok _ s' | Err _ s' => bb_post s s'
  | Panic _ => exists po, pool s = Some po /\ bb_panic_cause s po
  | Hang => True
  end.
Proof.
  cbv beta delta [begin_block bind get]. cbv beta iota. hide_strings.
  destruct (pool s) as [p|] eqn:Hpool; [|apply bb_post_refl].
  assert (Hpanic : bb_panic_cause s p -> exists po, Some p = Some po /\ bb_panic_cause s po) by eauto.
  unfold bb_panic_cause in Hpanic at 1.
  destruct (po_pledged p =? 0) eqn:Hpl0; [apply bb_post_refl|].
  name_let prm. subst prm. (* inlined: the causes speak of [nparams s] *)
  destruct (np_reward (nparams s) =? 0) eqn:Hr0; [apply bb_post_refl|].
  pose proof (reward_age_spec p s) as Ha.
  destruct (reward_age p s) as [a s'|e s'|e|]; [destruct Ha as (-> & -> & Hrem)|contradiction|apply Hpanic; lia|contradiction].
  name_let subsidy. name_let reward.
  assert (Hrw : reward <= subsidy /\ (reward = subsidy \/ reward = apy_reward s p)).
  { subst reward. cbv zeta. change (dec_trunc _) with (apy_reward s p).
    destruct (po_pledged p <? np_baseline (nparams s)); [|lia]. destruct (apy_reward s p <? subsidy) eqn:Hb; lia. }
  clearbody reward.
  destruct (_ && _) eqn:Hdiv; [apply andb_prop in Hdiv as [_ Hdiv]; apply Hpanic; lia|].
  destruct (reward <? 0) eqn:Hneg.
  { apply Hpanic. pose proof (Z.shiftr_nonneg (np_reward (nparams s)) (halving_age p)) as Hs. fold subsidy in Hs. lia. }
  destruct (reward =? 0) eqn:Hz; [apply bb_post_refl|].
  name_let p1. name_let p2. name_let p3.
  assert (E3 : po_storage p3 = po_storage p /\ po_pledged p3 = po_pledged p /\ po_reward p3 = po_reward p /\
               po_accreward p3 = po_accreward p).
  { subst p3 p2 p1. destruct (po_nrpb p =? 0), (cx_height cx mod np_adjust (nparams s) =? 0); repeat split. }
  clearbody p3. destruct E3 as (E31 & E32 & E33 & E34).
  unfold mint. destruct (reward <=? 0) eqn:Hle; [lia|]. cbv beta iota.
  destruct (po_storage p3 =? 0) eqn:Hst; [apply Hpanic; lia|].
  cbv zeta. unfold modify.
  exists reward. split; [lia|]. split; [reflexivity|]. split.
  { unfold balance at 1. cbn. rewrite lookup_insert. reflexivity. }
  split; [reflexivity|]. split; [reflexivity|]. split.
  { intros _. unfold subsidy_cap. rewrite Hpool. apply Hrw. }
  rewrite Hpool. split; [lia|].
  eexists. split; [reflexivity|]. cbn. rewrite E31, E32, E33, E34.
  repeat split; try reflexivity. right. split; [lia|reflexivity].
Qed.

Lemma step_bb_post cx s : bb_post s (fst (step cx s OBeginBlock)).
Proof.
  rewrite step_begin_block. unfold block_phase. pose proof (begin_block_spec cx s) as Hb.
  destruct (begin_block cx s); simpl; auto; apply bb_post_refl.
Qed.

Lemma claimable_acc acc acc' p : claimable acc' p = (acc' - acc) * pl_total p + claimable acc p.
Proof. unfold claimable, pending, dec_mul_int. lia. Qed.

Lemma phi_acc_change s s' po po' :
  pool s = Some po -> pool s' = Some po' -> pledges s' = pledges s ->
  phi s' = phi s + (po_accreward po' - po_accreward po) * sum_map pl_total (pledges s).
Proof.
  intros Hpo Hpo' Hpl. unfold phi. rewrite Hpo, Hpo', Hpl.
  rewrite (sum_map_ext (claimable (po_accreward po'))
             (fun p => (po_accreward po' - po_accreward po) * pl_total p + claimable (po_accreward po) p)).
  - rewrite sum_map_linear. lia.
  - intros _ p _. apply claimable_acc.
Qed.

Lemma bb_inv_pool s s' : bb_post s s' -> Inv_pool s -> Inv_pool s'.
Proof.
  intros (m & _ & _ & _ & Hpl & _ & _ & Hp) HI po' Hpo'.
  destruct (pool s) as [po|] eqn:Hpo.
  - destruct Hp as (_ & po'' & Hpo'' & _ & Hst & Hpg & _). rewrite Hpo' in Hpo''. injection Hpo'' as <-.
    rewrite Hpl, Hst, Hpg. apply HI. exact Hpo.
  - destruct Hp as [Hn _]. congruence.
Qed.

Lemma bb_phi s s' :
  bb_post s s' -> Inv_pool s -> (forall po, pool s = Some po -> 0 <= po_storage po) ->
  phi s <= phi s' /\ phi s' - phi s <= dec_of_int (supply s' - supply s).
Proof.
  intros (m & Hm & Hsup & _ & Hpl & _ & _ & Hp) HI Hnn.
  replace (supply s' - supply s) with m by lia.
  destruct (pool s) as [po|] eqn:Hpo.
  - destruct Hp as (_ & po' & Hpo' & _ & _ & _ & Hcase).
    rewrite (phi_acc_change s s' po po' Hpo Hpo' Hpl).
    destruct (HI po Hpo) as [HS _]. rewrite <- HS.
    destruct Hcase as [[-> ->]|[Hne Hacc]].
    + unfold dec_of_int. lia.
    + specialize (Hnn po eq_refl). rewrite Hacc.
      assert (Hd : 0 <= dec_of_int m) by (unfold dec_of_int, P18; lia).
      rewrite Z.quot_div_nonneg by lia.
      pose proof (Z.mul_div_le (dec_of_int m) (po_storage po) ltac:(lia)) as Hq.
      pose proof (Z.div_pos (dec_of_int m) (po_storage po) Hd ltac:(lia)) as Hq0. nia.
  - destruct Hp as [Hn ->]. unfold phi. rewrite Hpo, Hn. unfold dec_of_int. lia.
Qed.

Lemma bb_settled s s' : bb_post s s' -> Nonneg s -> Settled s -> Settled s'.
Proof.
  intros (m & _ & _ & _ & Hpl & _ & _ & Hp) Hnn HS po' k p Hpo' Hk Hle.
  rewrite Hpl in Hk. pose proof (Hnn k p Hk) as H0.
  destruct (pool s) as [po|] eqn:Hpo.
  - pose proof (HS po k p Hpo Hk Hle) as Hpe.
    unfold pending, dec_mul_int in *. replace (pl_total p) with 0 in * by lia. lia.
  - destruct Hp as [Hn _]. congruence.
Qed.

(** ** ClaimReward *)
(* what a claim by [c] leaves alone; it is paid from the two module accounts *)
Definition fr (c : string) (s s' : State) : Prop :=
  pledges s' = pledges s /\ pool s' = pool s /\ supply s' = supply s /\
  forall a, a <> c -> a <> macc NODE -> a <> macc MARKET -> bal s' !! a = bal s !! a.
Lemma fr_refl c s : fr c s s.
Proof. repeat split. Qed.
Lemma fr_trans c s1 s2 s3 : fr c s1 s2 -> fr c s2 s3 -> fr c s1 s3.
Proof.
  intros (A1 & A2 & A3 & A4) (B1 & B2 & B3 & B4). repeat split; try congruence.
  intros a H1 H2 H3. rewrite B4, A4; auto.
Qed.

Lemma market_claim_fr cx c s : okpost (fun _ s' => fr c s s') (market_claim cx c) s.
Proof.
  unfold okpost, market_claim, bind, get. destruct (workers s !! worker_name c); [|apply fr_refl].
  cbv zeta. destruct (_ =? 0); [apply fr_refl|]. destruct (_ <? 0); [exact I|]. simpl. repeat split.
Qed.
Lemma repay_debt_fr c rw s : okpost (fun _ s' => fr c s s') (repay_debt c rw) s.
Proof.
  unfold okpost, repay_debt, bind, get. destruct (debts s !! c); [|apply fr_refl].
  destruct (repay_loop _ _) as [rw' [d|]]; simpl; repeat split.
Qed.
Lemma pay_fr c from amt s :
  from = macc NODE \/ from = macc MARKET ->
  okpost (fun _ s' => fr c s s') (if amt =? 0 then ret tt else send_strict from c amt) s.
Proof.
  intros Hf. unfold okpost. destruct (amt =? 0); [apply fr_refl|].
  unfold send_strict. destruct (amt <=? 0); [exact I|]. destruct (_ <? amt); [exact I|].
  repeat split. intros a H1 H2 H3. unfold move. cbn.
  rewrite !lookup_insert_ne; [reflexivity| |]; intros <-; destruct Hf; congruence.
Qed.

Lemma release_none_spec c p0 s :
  pledges s !! c = Some p0 ->
  okpost (fun _ s1 => exists p3, pledges s1 = <[c:=p3]> (pledges s) /\ pool s1 = pool s /\ supply s1 = supply s /\
                     bal s1 = bal s /\ pl_total p3 = pl_total p0 /\ pl_spledged p3 = pl_spledged p0 /\
                     match pool s with
                     | Some po => pending (po_accreward po) p3 = 0 /\ pl_reward p3 = pl_reward (settle (po_accreward po) p0)
                     | None => p3 = p0
                     end)
       (try_ (shard_release c None)) s.
Proof.
  intros Hp0. unfold okpost, try_, shard_release, bind, get. rewrite Hp0.
  destruct (pool s) as [po|] eqn:Hpo; simpl.
  - eexists. split; [reflexivity|]. rewrite Hpo. repeat split.
    + cbn. apply settle_total.
    + cbn. apply settle_spledged.
    + unfold pending, dec_mul_int. cbn. lia.
  - exists p0. rewrite Hpo. repeat split. symmetry. apply insert_id. exact Hp0.
Qed.

Definition claim_post (c : string) (s s' : State) : Prop :=
  exists p0 q, pledges s !! c = Some p0 /\ pledges s' = <[c:=q]> (pledges s) /\
    pool s' = pool s /\ supply s' = supply s /\
    (forall a, a <> c -> a <> macc NODE -> a <> macc MARKET -> bal s' !! a = bal s !! a) /\
    pl_total q = pl_total p0 /\ pl_spledged q = pl_spledged p0 /\
    (forall po, pool s = Some po -> exists coins, 0 <= coins /\ pending (po_accreward po) q = 0 /\
        pl_reward q = pl_reward (settle (po_accreward po) p0) - dec_of_int coins).

Lemma claim_reward_spec cx c s : okpost (fun _ s' => claim_post c s s') (claim_reward cx c) s.
Proof.
  unfold claim_reward. apply okpost_bind_get.
  destruct (pledges s !! c) as [p0|] eqn:Hp0; [|exact I].
  eapply okpost_bind; [apply (release_none_spec c p0 s Hp0)|].
  intros _ s1 (p3 & Hpl1 & Hpool1 & Hsup1 & Hbal1 & Ht3 & Hs3 & Hcase).
  apply okpost_bind_get. rewrite Hpl1, lookup_insert.
  destruct (dec_split (pl_reward p3)) as [claim remain] eqn:Hsplit.
  destruct (claim <? 0) eqn:Hneg; [exact I|].
  eapply okpost_bind; [apply market_claim_fr|]. intros wr s2 F2.
  eapply okpost_bind; [apply repay_debt_fr|]. intros rw s3 F3.
  eapply okpost_bind; [apply pay_fr; auto|]. intros u4 s4 F4.
  eapply okpost_bind; [apply pay_fr; auto|]. intros u5 s5 F5.
  pose proof (fr_trans _ _ _ _ (fr_trans _ _ _ _ (fr_trans _ _ _ _ F2 F3) F4) F5) as (G1 & G2 & G3 & G4).
  unfold okpost, bind, modify, ret.
  exists p0, (p3 <| pl_reward := remain |>).
  split; [exact Hp0|]. split.
  { cbn. rewrite G1, Hpl1. apply insert_insert. }
  split; [cbn; congruence|]. split; [cbn; congruence|]. split.
  { intros a H1 H2 H3. cbn. rewrite G4 by assumption. rewrite Hbal1. reflexivity. }
  split; [exact Ht3|]. split; [exact Hs3|].
  intros po Hpo. rewrite Hpo in Hcase. destruct Hcase as [Hpe Hrw].
  unfold dec_split in Hsplit. injection Hsplit as Hc Hr.
  exists claim. split; [lia|]. split.
  - exact Hpe.
  - cbn. rewrite <- Hrw, <- Hr, Hc. unfold dec_of_int. lia.
Qed.

Lemma step_claim_ok cx s s' d c : step cx s (OClaimReward c) = (s', OutTx COk d) -> claim_post c s s'.
Proof.
  simpl. unfold deliver, bind. pose proof (claim_reward_spec cx c s) as Hc. unfold okpost in Hc.
  destruct (claim_reward cx c s); simpl; intros E; inversion E; subst; auto.
Qed.
Lemma step_claim_any cx s c :
  claim_post c s (fst (step cx s (OClaimReward c))) \/ same3 s (fst (step cx s (OClaimReward c))).
Proof.
  simpl. unfold deliver, bind. pose proof (claim_reward_spec cx c s) as Hc. unfold okpost in Hc.
  destruct (claim_reward cx c s); simpl; auto; right; repeat split.
Qed.

Lemma claim_inv_pool c s s' : claim_post c s s' -> Inv_pool s -> Inv_pool s'.
Proof.
  intros (p0 & q & Hp0 & Hpl & Hpool & _ & _ & Ht & Hs & _) HI po Hpo. rewrite Hpool in Hpo.
  destruct (HI po Hpo) as [H1 H2]. rewrite Hpl, !sum_map_insert, Hp0. split; lia.
Qed.

Lemma claim_settled_phi c s s' :
  claim_post c s s' -> Settled s ->
  Settled s' /\
  match pool s with
  | Some _ => exists coins, 0 <= coins /\ phi s' = phi s - dec_of_int coins
  | None => phi s' = phi s
  end.
Proof.
  intros (p0 & q & Hp0 & Hpl & Hpool & _ & _ & Ht & Hs & Hq) HS.
  destruct (pool s) as [po|] eqn:Hpo.
  - destruct (Hq po eq_refl) as (coins & Hc & Hpe & Hrw). split.
    + intros po' k p Hpo' Hk Hle. rewrite Hpool in Hpo'. injection Hpo' as <-.
      rewrite Hpl in Hk. destruct (decide (k = c)) as [->|Hne].
      * rewrite lookup_insert in Hk. injection Hk as <-. exact Hpe.
      * rewrite lookup_insert_ne in Hk by congruence. apply (HS po k p Hpo Hk Hle).
    + exists coins. split; [exact Hc|]. unfold phi. rewrite Hpool, Hpo, Hpl.
      rewrite sum_map_insert, Hp0.
      rewrite settle_reward in Hrw by (apply (HS po c p0 Hpo Hp0)).
      unfold claimable at 3. rewrite Hpe, Hrw. lia.
  - split.
    + intros po' k p Hpo'. congruence.
    + unfold phi. rewrite Hpool, Hpo. reflexivity.
Qed.

Lemma op_cases (op : Op) :
  op = OBeginBlock \/ (exists c, op = OClaimReward c) \/ (op <> OBeginBlock /\ forall c, op <> OClaimReward c).
Proof.
  destruct op; try (right; right; split; [discriminate|intros; discriminate]).
  - left. reflexivity.
  - right. left. eexists. reflexivity.
Qed.

(** * C14: the pool counters are the sums over the providers *)
Theorem step_inv_pool : forall cx s op, Inv_pool s -> Inv_pool (fst (step cx s op)).
Proof.
  intros cx s op HI. destruct (op_cases op) as [->|[[c ->]|[Hb Hc]]].
  - eapply bb_inv_pool; [apply step_bb_post|exact HI].
  - destruct (step_claim_any cx s c) as [Hc|(E1 & E2 & _)].
    + eapply claim_inv_pool; eassumption.
    + eapply Inv_pool_same; eassumption.
  - destruct (step_other_Rc cx s op Hb Hc) as (_ & H & _). auto.
Qed.
Print Assumptions step_inv_pool.

Theorem run_inv_pool : forall tr s, Inv_pool s -> Inv_pool (run tr s).
Proof.
  intros tr s. apply (run_preserves Inv_pool (fun _ _ => True)); [|exact I].
  intros cx op _ s0 _ HI. split; [apply step_inv_pool, HI|exact I].
Qed.
Print Assumptions run_inv_pool.

(** * C08: block-reward accounting *)
(* with [0 <= np_reward]: it is needed only for [m <= np_reward] when nothing is minted ([m = 0]);
   without it that bound fails, see [begin_block_mint_refuted] *)
Theorem begin_block_mint : forall cx s s' d,
  0 <= np_reward (nparams s) ->
  step cx s OBeginBlock = (s', OutBlock BOk d) ->
  exists m, 0 <= m /\ supply s' = supply s + m /\ balance s' (macc NODE) = balance s (macc NODE) + m /\
    m <= np_reward (nparams s) /\
    (forall po, pool s = Some po -> po_pledged po = 0 -> m = 0) /\
    (forall po, pool s = Some po -> exists po', pool s' = Some po' /\ po_reward po' = po_reward po + m /\
        po_storage po' = po_storage po /\ po_pledged po' = po_pledged po) /\
    pledges s' = pledges s.
Proof.
  intros cx s s' d Hnp Hstep. pose proof (step_bb_post cx s) as Hb. rewrite Hstep in Hb. simpl in Hb.
  destruct Hb as (m & Hm & Hsup & Hbal & Hpl & _ & Hle & Hp).
  exists m. repeat split; auto.
  - apply Hle in Hnp as Hc. apply subsidy_cap_bounds in Hnp. lia.
  - intros po Hpo. rewrite Hpo in Hp. tauto.
  - intros po Hpo. rewrite Hpo in Hp. destruct Hp as (_ & po' & H1 & H2 & H3 & H4 & _). eauto.
Qed.
Print Assumptions begin_block_mint.

Theorem begin_block_phi : forall cx s s' d, Inv_pool s -> step cx s OBeginBlock = (s', OutBlock BOk d) ->
  (forall po, pool s = Some po -> 0 < po_storage po) ->
  phi s <= phi s' /\ phi s' - phi s <= dec_of_int (supply s' - supply s) /\
  (forall k p po po', pool s = Some po -> pool s' = Some po' -> pledges s !! k = Some p ->
      claimable (po_accreward po') p - claimable (po_accreward po) p = (po_accreward po' - po_accreward po) * pl_total p).
Proof.
  intros cx s s' d HI Hstep Hpos. pose proof (step_bb_post cx s) as Hb. rewrite Hstep in Hb. simpl in Hb.
  destruct (bb_phi s s' Hb HI) as [H1 H2].
  { intros po Hpo. specialize (Hpos po Hpo). lia. }
  split; [exact H1|]. split; [exact H2|].
  intros k p po po' _ _ _. rewrite (claimable_acc (po_accreward po) (po_accreward po')). lia.
Qed.
Print Assumptions begin_block_phi.

(* with [Settled s]; without it the statement is false, see [claim_phi_refuted] *)
Theorem claim_phi : forall cx s s' d c, Settled s ->
  step cx s (OClaimReward c) = (s', OutTx COk d) -> (exists po, pool s = Some po) ->
  exists coins, 0 <= coins /\ phi s' = phi s - dec_of_int coins /\
    (forall k, k <> c -> pledges s' !! k = pledges s !! k) /\ pool s' = pool s.
Proof.
  intros cx s s' d c HS Hstep [po Hpo]. pose proof (step_claim_ok cx s s' d c Hstep) as Hc.
  destruct (claim_settled_phi c s s' Hc HS) as [_ Hphi]. rewrite Hpo in Hphi.
  destruct Hphi as (coins & H0 & H1). exists coins. split; [exact H0|]. split; [exact H1|].
  destruct Hc as (p0 & q & _ & Hpl & Hpool & _). split; [|exact Hpool].
  intros k Hk. rewrite Hpl. apply lookup_insert_ne. congruence.
Qed.
Print Assumptions claim_phi.

(* with [Settled s], which [step_settled] preserves; without it the statement is false, see [other_phi_refuted] *)
Theorem other_phi : forall cx s op, Settled s -> op <> OBeginBlock -> (forall c, op <> OClaimReward c) ->
  phi (fst (step cx s op)) = phi s.
Proof. intros cx s op HS Hb Hc. destruct (step_other_Rc cx s op Hb Hc) as (_ & _ & H). apply H. exact HS. Qed.
Print Assumptions other_phi.

Theorem other_supply : forall cx s op, op <> OBeginBlock -> supply (fst (step cx s op)) = supply s.
Proof.
  intros cx s op Hb. destruct (op_cases op) as [->|[[c ->]|[_ Hc]]]; [contradiction| |].
  - destruct (step_claim_any cx s c) as [(p0 & q & _ & _ & _ & E & _)|(_ & _ & E)]; exact E.
  - destruct (step_other_Rc cx s op Hb Hc) as (E & _). exact E.
Qed.
Print Assumptions other_supply.

Theorem step_settled : forall cx s op, Settled s -> (op = OBeginBlock -> Nonneg s) -> Settled (fst (step cx s op)).
Proof.
  intros cx s op HS Hnn. destruct (op_cases op) as [->|[[c ->]|[Hb Hc]]].
  - eapply bb_settled; [apply step_bb_post|auto|exact HS].
  - destruct (step_claim_any cx s c) as [Hc|(E1 & E2 & _)].
    + apply (claim_settled_phi c s _ Hc HS).
    + eapply Settled_same; eassumption.
  - destruct (step_other_Rc cx s op Hb Hc) as (_ & _ & H). apply H. exact HS.
Qed.
Print Assumptions step_settled.

Theorem claim_pays : forall cx s s' d c, step cx s (OClaimReward c) = (s', OutTx COk d) ->
  exists p, pledges s !! c = Some p /\
    (forall a, a <> c -> a <> macc NODE -> a <> macc MARKET -> bal s' !! a = bal s !! a).
Proof.
  intros cx s s' d c Hstep. destruct (step_claim_ok cx s s' d c Hstep) as (p0 & q & Hp0 & _ & _ & _ & Hbal & _).
  exists p0. split; assumption.
Qed.
Print Assumptions claim_pays.

(** ** the history-level statement *)
Fixpoint minted_in (tr : list (Ctx * Op)) (s : State) : Z :=
  match tr with
  | [] => 0
  | (cx, op) :: r => (supply (fst (step cx s op)) - supply s) + minted_in r (fst (step cx s op))
  end.
Fixpoint claimed_in (tr : list (Ctx * Op)) (s : State) : Z :=
  match tr with
  | [] => 0
  | (cx, op) :: r =>
      (match op with OClaimReward _ => phi s - phi (fst (step cx s op)) | _ => 0 end) + claimed_in r (fst (step cx s op))
  end.
Fixpoint nonneg_at_blocks (tr : list (Ctx * Op)) (s : State) : Prop :=
  match tr with
  | [] => True
  | (cx, op) :: r => (op = OBeginBlock -> Nonneg s) /\ nonneg_at_blocks r (fst (step cx s op))
  end.

Lemma minted_in_run tr : forall s, minted_in tr s = supply (run tr s) - supply s.
Proof. induction tr as [|[cx op] tr IH]; intros s; cbn [minted_in]; [|rewrite IH, run_cons]; simpl; lia. Qed.

Lemma step_bound cx s op :
  Inv_pool s -> Settled s -> (op = OBeginBlock -> Nonneg s) ->
  phi (fst (step cx s op)) + (match op with OClaimReward _ => phi s - phi (fst (step cx s op)) | _ => 0 end)
  <= phi s + dec_of_int (supply (fst (step cx s op)) - supply s).
Proof.
  intros HI HS Hnn. destruct (op_cases op) as [->|[[c ->]|[Hb Hc]]].
  - destruct (bb_phi s _ (step_bb_post cx s) HI) as [_ H2]; [|lia].
    intros po Hpo. destruct (HI po Hpo) as [-> _]. apply sum_map_nonneg. apply Hnn. reflexivity.
  - rewrite other_supply by discriminate. unfold dec_of_int. lia.
  - rewrite other_supply by exact Hb. rewrite other_phi by assumption.
    destruct op; try (unfold dec_of_int; lia).
Qed.

Theorem no_overclaim : forall tr s, Inv_pool s -> Settled s -> nonneg_at_blocks tr s ->
  phi (run tr s) + claimed_in tr s <= phi s + dec_of_int (minted_in tr s).
Proof.
  induction tr as [|[cx op] tr IH]; intros s HI HS Hnn.
  - simpl. unfold dec_of_int. lia.
  - destruct Hnn as [Hn Hrest]. rewrite run_cons. cbn [minted_in claimed_in].
    pose proof (step_bound cx s op HI HS Hn) as Hb.
    specialize (IH (fst (step cx s op)) (step_inv_pool cx s op HI) (step_settled cx s op HS Hn) Hrest).
    unfold dec_of_int in *. lia.
Qed.
Print Assumptions no_overclaim.

(** * the hypotheses [Settled] and [0 <= np_reward] cannot be dropped *)
Definition ex_params : NParams :=
  mkNParams 1000 1000000000 500000000000000000 32000000 2000 100000000000000000 "" 1 10000 10737418240 1800.
Definition ex_cx (h : Z) : Ctx := {| cx_height := h; cx_chain := "c"; cx_time := 0; cx_seed := 0 |}.

(* a state that is not [Settled]: a provider without capacity whose recorded debt is 5 *)
Definition unsettled : State :=
  mkState did_empty (<["sao1a" := mkNode "" 10000 0 1 [] 0 ""]> ∅) (<["sao1a" := mkPledge 0 0 0 5 0 0]> ∅) ∅
          (Some (mkPool 0 0 0 1 0 0 0 0)) None ∅ ∅ ∅ ex_params ∅ 1 ∅ 0 ∅ ∅ ∅ ∅ ∅ ∅
          (list_to_map [("sao1a", 1000000)]) 1000000 ∅ ∅ 0.

(* without [Settled] a pledge changes the total credited: the overwritten debt was never settled *)
Theorem other_phi_refuted : exists cx s op,
  op <> OBeginBlock /\ (forall c, op <> OClaimReward c) /\ phi (fst (step cx s op)) <> phi s.
Proof.
  exists (ex_cx 1), unsettled, (OAddVstorage "sao1a" 1000000).
  split; [discriminate|]. split; [intros; discriminate|]. vm_compute. discriminate.
Qed.
Print Assumptions other_phi_refuted.

Theorem claim_phi_refuted : exists cx s s' d c,
  step cx s (OClaimReward c) = (s', OutTx COk d) /\ (exists po, pool s = Some po) /\
  forall coins, 0 <= coins -> phi s' <> phi s - dec_of_int coins.
Proof.
  exists (ex_cx 1), unsettled, (step (ex_cx 1) unsettled (OClaimReward "sao1a")).1. eexists. exists "sao1a".
  split; [apply step_to; reflexivity|]. split; [eexists; reflexivity|].
  intros coins Hc. vm_compute phi. unfold dec_of_int, P18. lia.
Qed.
Print Assumptions claim_phi_refuted.

Theorem begin_block_mint_refuted : exists cx s s' d,
  step cx s OBeginBlock = (s', OutBlock BOk d) /\
  ~ exists m, 0 <= m /\ supply s' = supply s + m /\ m <= np_reward (nparams s).
Proof.
  set (s := mkState did_empty ∅ ∅ ∅ None None ∅ ∅ ∅
            (mkNParams (-1) 1000000000 500000000000000000 32000000 2000 100000000000000000 "" 1 10000 10737418240 1800)
            ∅ 1 ∅ 0 ∅ ∅ ∅ ∅ ∅ ∅ ∅ 0 ∅ ∅ 0).
  exists (ex_cx 1), s, (step (ex_cx 1) s OBeginBlock).1. eexists.
  split; [apply step_to; reflexivity|].
  intros (m & H0 & _ & Hle). simpl in Hle. lia.
Qed.
Print Assumptions begin_block_mint_refuted.

(** * non-vacuity *)
(* two providers pledge capacity, three blocks mint 1000 each, the first provider claims *)
Definition ex_genesis : State :=
  mkState did_empty ∅ ∅ ∅ (Some (mkPool 0 0 0 0 0 0 0 0)) None ∅ ∅ ∅ ex_params ∅ 1 ∅ 0 ∅ ∅ ∅ ∅ ∅ ∅
          (list_to_map [("sao1a", 1000000000000); ("sao1b", 1000000000000)]) 2000000000000 ∅ ∅ 0.
Definition ex_trace : list (Ctx * Op) :=
  [ (ex_cx 1, ONodeCreate "sao1a"); (ex_cx 1, ONodeCreate "sao1b");
    (ex_cx 1, OAddVstorage "sao1a" 1000000000000000); (ex_cx 1, OAddVstorage "sao1b" 3000000000000000);
    (ex_cx 2, OBeginBlock); (ex_cx 3, OBeginBlock); (ex_cx 3, OClaimReward "sao1a"); (ex_cx 4, OBeginBlock) ].

Lemma ex_genesis_inv : Inv_pool ex_genesis.
Proof. intros po Hpo. injection Hpo as <-. split; reflexivity. Qed.
Lemma ex_genesis_settled : Settled ex_genesis.
Proof. intros po k p _ Hk. simpl in Hk. rewrite lookup_empty in Hk. discriminate. Qed.
Fixpoint nonneg_chk (tr : list (Ctx * Op)) (s : State) : bool :=
  match tr with
  | [] => true
  | (cx, op) :: r =>
      (match op with
       | OBeginBlock => bool_decide (map_Forall (fun (_ : string) p => 0 <= pl_total p) (pledges s))
       | _ => true end) && nonneg_chk r (fst (step cx s op))
  end.
Lemma nonneg_chk_sound tr : forall s, nonneg_chk tr s = true -> nonneg_at_blocks tr s.
Proof.
  induction tr as [|[cx op] tr IH]; intros s Hc; [exact I|].
  simpl in Hc. apply andb_true_iff in Hc. destruct Hc as [H1 H2]. split; [|apply IH; exact H2].
  intros ->. apply bool_decide_eq_true_1 in H1. exact H1.
Qed.
Lemma ex_nonneg : nonneg_at_blocks ex_trace ex_genesis.
Proof. apply nonneg_chk_sound. vm_compute. reflexivity. Qed.

Lemma run_settled : forall tr s, Settled s -> nonneg_at_blocks tr s -> Settled (run tr s).
Proof.
  intros tr s HS Hn. revert Hn HS. apply (run_preserves Settled nonneg_at_blocks).
  intros cx op r s0 [Hn Hr] HS. split; [apply step_settled; assumption|exact Hr].
Qed.

Example accumulator_nonvacuous :
  let s := run ex_trace ex_genesis in
  phi s = dec_of_int 2500 /\                          (* still claimable *)
  minted_in ex_trace ex_genesis = 3000 /\             (* coins minted *)
  claimed_in ex_trace ex_genesis = dec_of_int 500 /\  (* claimed along the run *)
  supply s = supply ex_genesis + 3000 /\
  balance s "sao1a" = 1000000000000 - 1000000000 + 500 /\ (* the claim was paid out *)
  balance s (macc NODE) = 4000000000 + 3000 - 500 /\
  Inv_pool s /\ Settled s /\
  phi s + claimed_in ex_trace ex_genesis <= phi ex_genesis + dec_of_int (minted_in ex_trace ex_genesis).
Proof.
  intros s. rewrite !minted_in_run. fold s.
  (* one evaluation of the run for the six computed facts *)
  lazymatch goal with |- ?a /\ ?b /\ ?c /\ ?d /\ ?e /\ ?f /\ _ =>
    assert (E : a /\ b /\ c /\ d /\ e /\ f) by (vm_compute; repeat split) end.
  pose proof (no_overclaim ex_trace _ ex_genesis_inv ex_genesis_settled ex_nonneg) as Hb.
  rewrite minted_in_run in Hb.
  do 6 (split; [apply E|]).
  split; [apply run_inv_pool, ex_genesis_inv|]. split; [|exact Hb].
  apply run_settled; [apply ex_genesis_settled|apply ex_nonneg].
Qed.
Print Assumptions accumulator_nonvacuous.
