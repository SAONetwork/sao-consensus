(* C07: what the chain takes as collateral for a shard is what it records for it. [shard_pledge] (ShardPledge, called
   when a shard is reported stored) takes from the provider exactly the amount it writes into the shard's pledge field
   and adds to the provider's recorded shard collateral -- or, for a migrated shard with queued renewals whose provider
   cannot pay, takes what the provider has and records the rest as debt. Together with [Money.shard_release_pays_owner]
   (the release returns the recorded amount less exactly the reduction of the recorded debt): the amount returned for a
   shard equals the amount taken for it, less only recorded debt. *)
From SaoVerif Require Import Base.Prelude Base.Ints Base.Dec Model.Did Model.Types Model.Monad Model.Bank Model.Select
     Model.Node Model.Storage Model.Sao Model.Hooks Model.App Proofs.RefInt Proofs.Outcome Proofs.Money.
From RecordUpdate Require Import RecordUpdate.
Import RecordSetNotations.

Theorem shard_pledge_takes : forall id sh price s sh' s' p,
  shard_pledge id sh price s = Ok sh' s' -> pledges s !! sh_sp sh = Some p -> sh_sp sh <> macc NODE ->
  exists taken p',
    0 <= taken /\ taken <= sh_pledge sh' /\
    balance s' (sh_sp sh) = balance s (sh_sp sh) - taken /\
    balance s' (macc NODE) = balance s (macc NODE) + taken /\
    default 0 (debts s' !! sh_sp sh) = default 0 (debts s !! sh_sp sh) + (sh_pledge sh' - taken) /\
    (sh_renew sh = [] -> taken = sh_pledge sh') /\
    (forall a, a <> sh_sp sh -> a <> macc NODE -> bal s' !! a = bal s !! a) /\
    (forall k, k <> sh_sp sh -> debts s' !! k = debts s !! k) /\
    pledges s' !! sh_sp sh = Some p' /\ pl_shpledged p' = pl_shpledged p + sh_pledge sh' /\
    pl_total p' = pl_total p /\ pl_spledged p' = pl_spledged p /\
    (forall k, k <> sh_sp sh -> pledges s' !! k = pledges s !! k) /\
    shards s' !! id = Some sh' /\ sh' = sh <| sh_pledge := sh_pledge sh' |>.
Proof.
  intros id sh price s sh' s' p H Hp Hne. unfold shard_pledge in H.
  apply bind_ok in H as (s0 & s0' & Hg & H). inversion Hg; subst s0 s0'; clear Hg.
  rewrite Hp in H. destruct (pool s) as [po|]; [|discriminate].
  destruct (u64 _ <? sh_size sh); [discriminate|].
  destruct (dec_trunc _ <? 0); [discriminate|].
  set (spl := fold_left _ (sh_renew sh) _) in H.
  destruct (settle_keeps (po_accreward po) p) as (F1 & F2 & F3 & _).
  apply bind_ok in H as ([] & s1 & Hsend & H).
  apply bind_ok in H as ([] & s2 & Hm & H). unfold modify in Hm. inversion Hm; subst s2; clear Hm.
  unfold ret in H. inversion H; subst sh' s'; clear H.
  assert (Hcases :
    (exists taken, 0 <= taken /\ taken <= spl /\
       balance s1 (sh_sp sh) = balance s (sh_sp sh) - taken /\ balance s1 (macc NODE) = balance s (macc NODE) + taken /\
       default 0 (debts s1 !! sh_sp sh) = default 0 (debts s !! sh_sp sh) + (spl - taken) /\
       (sh_renew sh = [] -> taken = spl) /\
       (forall a, a <> sh_sp sh -> a <> macc NODE -> bal s1 !! a = bal s !! a) /\
       (forall k, k <> sh_sp sh -> debts s1 !! k = debts s !! k) /\ pledges s1 = pledges s)).
  { match goal with |- ?G => assert (Hfull : send_lenient (sh_sp sh) (macc NODE) spl s = Ok tt s1 -> G) end.
    { intros Hs. apply send_lenient_post in Hs as (L1 & L2 & L3 & L4 & L5). destruct (L3 Hne) as [L3a L3b].
      exists spl. rewrite L5. cbn. repeat split; try assumption; try lia; intros; reflexivity. }
    destruct (sh_renew sh) as [|ri rs] eqn:Er; [exact (Hfull Hsend)|].
    destruct (spl <=? balance s (sh_sp sh)) eqn:Eb; [exact (Hfull Hsend)|].
    clear Hfull. zb. apply bind_ok in Hsend as ([] & t1 & Hm & Hsend). unfold modify in Hm. inversion Hm; subst t1; clear Hm.
    apply send_strict_post in Hsend as (S1 & S2 & S3 & S4 & S5 & S6).
    destruct (S3 Hne) as [S3a S3b].
    set (b := balance s (sh_sp sh)) in *.
    assert (Eb1 : balance (s <| debts ::= <[sh_sp sh := default 0 (debts s !! sh_sp sh) + (spl - b)]> |>) (sh_sp sh) = b) by reflexivity.
    assert (Eb2 : balance (s <| debts ::= <[sh_sp sh := default 0 (debts s !! sh_sp sh) + (spl - b)]> |>) (macc NODE) = balance s (macc NODE)) by reflexivity.
    exists b.
    split; [lia|]. split; [lia|]. split; [rewrite S3a, Eb1; lia|]. split; [rewrite S3b, Eb2; reflexivity|].
    rewrite S6.
    split; [cbn; rewrite lookup_insert; cbn; lia|]. split; [discriminate|].
    split; [intros a Ha1 Ha2; cbn; rewrite (S5 a Ha1 Ha2); reflexivity|].
    split; [intros k Hk; cbn; rewrite lookup_insert_ne by congruence; reflexivity|reflexivity]. }
  destruct Hcases as (taken & T1 & T2 & T3 & T4 & T5 & T6 & T7 & T8 & T9).
  exists taken. eexists. cbn.
  split; [exact T1|]. split; [exact T2|]. split; [exact T3|]. split; [exact T4|]. split; [exact T5|]. split; [exact T6|].
  split; [exact T7|]. split; [exact T8|].
  split; [apply lookup_insert|]. cbn. rewrite F1, F2, F3.
  split; [reflexivity|]. split; [reflexivity|]. split; [reflexivity|].
  split; [intros k Hk; rewrite lookup_insert_ne by congruence; rewrite T9; reflexivity|].
  split; [apply lookup_insert|reflexivity].
Qed.
Print Assumptions shard_pledge_takes.

(** ** non-vacuity: the completion in RefInt.W takes the shard's collateral from its provider "T" into the node escrow *)
Example collateral_nonvacuous :
  exists sh, shards W.s2 !! 1 = Some sh /\ 0 < sh_pledge sh /\
    balance W.s2 "T" = balance W.s1 "T" - sh_pledge sh /\
    balance W.s2 (macc NODE) = balance W.s1 (macc NODE) + sh_pledge sh.
Proof. eexists. split; [vm_compute; reflexivity|]. split; [vm_compute; reflexivity|]. split; vm_compute; reflexivity. Qed.
