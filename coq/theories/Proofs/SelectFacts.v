From SaoVerif Require Import Base.Prelude Base.Ints Base.Dec Model.Did Model.Types Model.Select Proofs.Outcome.

(** * RandomIndex *)

Lemma digits_zero : digits 0 = O.
Proof. reflexivity. Qed.

Lemma digits_aux_0 f : digits_aux f 0 = O.
Proof. destruct f; reflexivity. Qed.

Lemma digits_aux_S f n :
  digits_aux (S f) n = if n <=? 0 then O else S (digits_aux f (n / 10)).
Proof. reflexivity. Qed.

Lemma pow10_S k : 10 ^ Z.of_nat (S k) = 10 * 10 ^ Z.of_nat k.
Proof. rewrite Nat2Z.inj_succ. apply Z.pow_succ_r, Nat2Z.is_nonneg. Qed.

Lemma pow10_pos k : 0 < 10 ^ Z.of_nat k.
Proof. apply Z.pow_pos_nonneg; lia. Qed.

Lemma div10_bound B n : 0 <= n < 10 * B -> 0 <= n / 10 < B.
Proof. intros Hn. split; [apply Z.div_pos|apply Z.div_lt_upper_bound]; lia. Qed.

Lemma digits_aux_stable f : forall n,
  0 <= n < 10 ^ Z.of_nat f -> digits_aux (S f) n = digits_aux f n.
Proof.
  induction f as [|f IH]; intros n Hn.
  - change (10 ^ Z.of_nat 0) with 1 in Hn. replace n with 0 by lia. reflexivity.
  - rewrite pow10_S in Hn.
    rewrite (digits_aux_S (S f)), (IH (n / 10) (div10_bound _ _ Hn)). reflexivity.
Qed.

Lemma digits_aux_step f n :
  0 < n < 10 ^ Z.of_nat (S f) -> digits_aux (S f) n = S (digits_aux (S f) (n / 10)).
Proof.
  intros Hn. rewrite (digits_aux_S f n). destruct (Z.leb_spec n 0); [lia|].
  rewrite (digits_aux_stable f (n / 10)); [reflexivity|].
  apply div10_bound. rewrite <- pow10_S. lia.
Qed.

Lemma inZ_spec x l : reflect (x ∈ l) (inZ x l).
Proof. apply existsb_eqb_reflect, Z.eqb_spec. Qed.

Lemma first_free_aux_spec f k idx :
  k <= first_free_aux f k idx /\
  (forall j, k <= j < first_free_aux f k idx -> j ∈ idx) /\
  (first_free_aux f k idx = k + Z.of_nat f \/ first_free_aux f k idx ∉ idx).
Proof.
  revert k. induction f as [|f IH]; intros k; cbn [first_free_aux].
  - split; [lia|]. split; [intros; lia|left; lia].
  - destruct (inZ_spec k idx) as [Hin|Hnin].
    + destruct (IH (k + 1)) as (Hr & Hbelow & Hfree).
      split; [lia|]. split; [|destruct Hfree; [left; lia|right; assumption]].
      intros j Hj. destruct (Z.eq_dec j k) as [->|Hne]; [exact Hin|apply Hbelow; lia].
    + split; [lia|]. split; [intros j Hj; lia|right; exact Hnin].
Qed.

(* pigeonhole: the indices below [first_free idx] are all in [idx], so there are at most [length idx] *)
Lemma first_free_spec idx :
  0 <= first_free idx <= Z.of_nat (length idx) /\ first_free idx ∉ idx.
Proof.
  unfold first_free.
  destruct (first_free_aux_spec (S (length idx)) 0 idx) as (Hr & Hbelow & Hfree).
  set (r := first_free_aux (S (length idx)) 0 idx) in *.
  assert (Hsub : seqZ 0 r ⊆+ idx).
  { apply NoDup_submseteq; [apply NoDup_seqZ|].
    intros x Hx. apply elem_of_seqZ in Hx. apply Hbelow. lia. }
  apply submseteq_length in Hsub. rewrite seqZ_length in Hsub.
  split; [lia|]. destruct Hfree as [Heq|Hfree]; [lia|exact Hfree].
Qed.

Definition in_range (total : Z) (i : Z) : Prop := 0 <= i < total.

Lemma random_index_loop_spec fuel : forall seed md total count idx res,
  0 < total ->
  NoDup idx -> Forall (fun i => 0 <= i < total) idx ->
  Z.of_nat (length idx) + Z.of_nat count < total ->
  random_index_loop fuel seed md total count idx = SelOk res ->
  NoDup res /\ Forall (fun i => 0 <= i < total) res /\
  length res = (length idx + count)%nat.
Proof.
  induction fuel as [|fuel IH]; intros seed md total [|c] idx res Htot Hnd Hrg Hlen Hres;
    cbn [random_index_loop] in Hres; try discriminate.
  1, 2: injection Hres as <-; rewrite Nat.add_0_r; auto.
  cbv zeta in Hres.
  assert (Hpush : forall x, x ∉ idx -> 0 <= x < total ->
            random_index_loop fuel (seed / 10) md total c (idx ++ [x]) = SelOk res ->
            NoDup res /\ Forall (fun i => 0 <= i < total) res /\ length res = (length idx + S c)%nat).
  { intros x Hx Hxr Hres'. rewrite Nat.add_succ_r. apply IH in Hres'.
    - rewrite app_length, Nat.add_1_r in Hres'. exact Hres'.
    - exact Htot.
    - apply NoDup_app. split; [exact Hnd|]. split; [|apply NoDup_singleton].
      intros y Hy Hy'. apply elem_of_list_singleton in Hy'. subst y. contradiction.
    - apply Forall_app. split; [exact Hrg|]. apply Forall_singleton. exact Hxr.
    - rewrite app_length. cbn [length]. lia. }
  destruct (inZ_spec ((seed mod md) mod total) idx) as [_|Hnin]; [destruct (seed / 10 =? 0)|].
  - destruct (first_free_spec idx) as (Hff & Hfree). apply (Hpush (first_free idx)); [exact Hfree|lia|exact Hres].
  - apply IH in Hres; assumption.
  - apply (Hpush _ Hnin); [apply Z.mod_pos_bound; exact Htot|exact Hres].
Qed.

(* [digits_aux f seed] bounds the number of retries as long as [seed] has at most [f] digits: a retry
   happens only while [seed / 10 <> 0], and then [seed / 10] has one digit less. *)
Lemma random_index_loop_terminates fuel : forall f seed md total count idx,
  0 <= seed < 10 ^ Z.of_nat f ->
  (digits_aux f seed + count <= fuel)%nat ->
  random_index_loop fuel seed md total count idx <> SelHang /\
  random_index_loop fuel seed md total count idx <> SelPanic.
Proof.
  induction fuel as [|fuel IH]; intros f seed md total [|c] idx Hseed Hfuel;
    cbn [random_index_loop]; [split; discriminate|lia|split; discriminate|].
  cbv zeta. destruct (Z.eq_dec seed 0) as [->|Hne].
  - change (0 / 10) with 0. change (0 =? 0) with true. cbv iota.
    destruct (inZ _ idx); apply (IH f); rewrite ?digits_aux_0; lia.
  - destruct f as [|f]; [change (10 ^ Z.of_nat 0) with 1 in Hseed; lia|].
    rewrite pow10_S in Hseed. pose proof (div10_bound _ _ Hseed) as Hdiv.
    rewrite digits_aux_S in Hfuel. destruct (Z.leb_spec seed 0) as [?|_] in Hfuel; [lia|].
    destruct (inZ _ idx); [destruct (_ =? 0)|]; apply (IH f); (exact Hdiv || lia).
Qed.

(* The fuel [digits seed] saturates at 400 decimal digits, so the unrestricted statement
   is false (see [random_index_terminates_refuted]); it holds for seed < 10^400. *)
Theorem random_index_terminates_partial : forall seed total count,
  0 <= seed -> seed < 10 ^ 400 ->
  random_index seed total count <> SelHang /\ random_index seed total count <> SelPanic.
Proof.
  intros seed total count Hs0 Hs1. unfold random_index, digits.
  destruct (total <=? count); [split; discriminate|].
  destruct (count <=? 0); [split; discriminate|].
  (* [clear]: [lia] would expand a [10 ^ 400] it finds in the context into the proof term *)
  apply (random_index_loop_terminates _ 400); [split; [exact Hs0|exact Hs1]|clear; lia].
Qed.
Print Assumptions random_index_terminates_partial.

(* the name under which Properties/C02 cites it *)
Theorem random_index_terminates : forall seed total count,
  0 <= seed -> seed < 10 ^ 400 ->
  random_index seed total count <> SelHang /\ random_index seed total count <> SelPanic.
Proof. exact random_index_terminates_partial. Qed.
Print Assumptions random_index_terminates.

(* Every digit drawn from [10 ^ S k] but the last is 0: the first draw takes index 0, each later one
   is a duplicate that costs one iteration, and only the leading 1 ends the loop. So two of three
   indices take [k + 2] iterations, while the fuel [digits seed + count + 2] is at most 400 + 4.
   The lemmas are stated for that witness only: total 3, count 2, modulus [pow10_ge 3 = 10]. *)
Lemma pow10_div k : 10 ^ Z.of_nat (S k) / 10 = 10 ^ Z.of_nat k.
Proof. rewrite pow10_S, Z.mul_comm. apply Z.div_mul. discriminate. Qed.

Lemma pow10_mod k : 10 ^ Z.of_nat (S k) mod 10 = 0.
Proof. rewrite pow10_S, Z.mul_comm. apply Z.mod_mul. discriminate. Qed.

Lemma digits_aux_pow10 f : forall k, digits_aux f (10 ^ Z.of_nat k) = Nat.min (S k) f.
Proof.
  induction f as [|f IH]; intros k; [reflexivity|]. cbn [digits_aux].
  destruct (Z.leb_spec (10 ^ Z.of_nat k) 0) as [H|_]; [pose proof (pow10_pos k); lia|].
  destruct k as [|k].
  - change (10 ^ Z.of_nat 0 / 10) with 0. rewrite digits_aux_0. reflexivity.
  - rewrite pow10_div, IH. reflexivity.
Qed.

Lemma random_index_loop_pow10 fuel : forall k,
  random_index_loop fuel (10 ^ Z.of_nat k) 10 3 1 [0] =
  if (k <? fuel)%nat then SelOk [0; 1] else SelHang.
Proof.
  induction fuel as [|fuel IH]; intros k; [reflexivity|].
  cbn [random_index_loop]. cbv zeta. destruct k as [|k].
  - destruct fuel; reflexivity.
  - rewrite pow10_mod, pow10_div. change (inZ (0 mod 3) [0]) with true. cbv iota.
    destruct (Z.eqb_spec (10 ^ Z.of_nat k) 0) as [H|_]; [pose proof (pow10_pos k); lia|].
    apply IH.
Qed.

Lemma random_index_pow10 k :
  random_index (10 ^ Z.of_nat (S k)) 3 2 = if (k <? 403)%nat then SelOk [0; 1] else SelHang.
Proof.
  unfold random_index, digits. change (3 <=? 2) with false. change (2 <=? 0) with false. cbv iota.
  change (pow10_ge 3) with 10. change (Z.to_nat 2) with 2%nat.
  rewrite digits_aux_pow10.
  replace (Nat.min (S (S k)) 400 + 2 + 2)%nat with (S (Nat.min (S (S k)) 400 + 3)) by lia.
  cbn [random_index_loop]. cbv zeta.
  rewrite pow10_mod, pow10_div. change (inZ (0 mod 3) []) with false. cbv iota.
  change ([] ++ [0 mod 3]) with [0].
  rewrite random_index_loop_pow10.
  destruct (Nat.ltb_spec k 403), (Nat.ltb_spec k (Nat.min (S (S k)) 400 + 3)); (reflexivity || lia).
Qed.

Theorem random_index_terminates_refuted :
  exists seed total count, 0 <= seed /\ random_index seed total count = SelHang.
Proof.
  exists (10 ^ 404), 3, 2. split; [apply Z.pow_nonneg; lia|exact (random_index_pow10 403)].
Qed.
Print Assumptions random_index_terminates_refuted.

Lemma random_index_sound seed total count idx :
  random_index seed total count = SelOk idx ->
  NoDup idx /\ Forall (fun i => 0 <= i < total) idx /\
  (0 < count < total -> Z.of_nat (length idx) = count) /\
  (~ (0 < count < total) -> idx = []).
Proof.
  intros Hres. unfold random_index in Hres.
  destruct (Z.leb_spec total count); [|destruct (Z.leb_spec count 0)].
  1, 2: injection Hres as <-; split; [apply NoDup_nil_2|]; split; [apply Forall_nil_2|];
        split; [lia|reflexivity].
  apply random_index_loop_spec in Hres; [|lia|apply NoDup_nil_2|apply Forall_nil_2|cbn [length]; lia].
  destruct Hres as (H1 & H2 & H3). split; [exact H1|]. split; [exact H2|].
  cbn [length] in H3. split; lia.
Qed.

(* as Properties/C15 states it; [random_index_sound] shows that the sign of the seed does not matter *)
Theorem random_index_spec : forall seed total count idx,
  0 <= seed -> random_index seed total count = SelOk idx ->
  NoDup idx /\ Forall (fun i => 0 <= i < total) idx /\
  (0 < count < total -> Z.of_nat (length idx) = count) /\
  (~ (0 < count < total) -> idx = []).
Proof. intros seed total count idx _. apply random_index_sound. Qed.
Print Assumptions random_index_spec.

(** * SelectNodes *)
Lemma insert_Permutation_cons {A} (l : list A) j b x :
  l !! j = Some b -> b :: <[j:=x]> l ≡ₚ x :: l.
Proof.
  intros Hj.
  assert (Hlt : (j < length l)%nat) by (eapply lookup_lt_Some; exact Hj).
  rewrite insert_take_drop by exact Hlt.
  rewrite <- (take_drop_middle l j b Hj) at 3.
  rewrite <- !Permutation_middle. apply perm_swap.
Qed.

Lemma swap_Permutation {A} (l : list A) i j : swap l i j ≡ₚ l.
Proof.
  unfold swap.
  destruct (l !! i) as [a|] eqn:Hi; [|reflexivity].
  destruct (l !! j) as [b|] eqn:Hj; [|reflexivity].
  assert (Hlti : (i < length l)%nat) by (eapply lookup_lt_Some; exact Hi).
  assert (Hj1 : <[i:=b]> l !! j = Some b).
  { destruct (decide (i = j)) as [->|Hne].
    - apply list_lookup_insert. exact Hlti.
    - rewrite list_lookup_insert_ne by exact Hne. exact Hj. }
  apply (Permutation_cons_inv (a := b)).
  rewrite (insert_Permutation_cons _ j b a Hj1).
  apply insert_Permutation_cons. exact Hi.
Qed.

Lemma heap_cmp_Permutation l index c : heap_cmp l index c ≡ₚ l.
Proof. unfold heap_cmp. repeat case_match; (reflexivity || apply swap_Permutation). Qed.

Lemma heapify_Permutation p l : heapify p l ≡ₚ l.
Proof.
  unfold heapify. cbv zeta.
  repeat case_match; rewrite ?heap_cmp_Permutation; reflexivity.
Qed.

Lemma build_heap_from_Permutation k : forall l, build_heap_from k l ≡ₚ l.
Proof.
  induction k as [|k IH]; intros l; cbn [build_heap_from]; [reflexivity|].
  rewrite IH. apply heapify_Permutation.
Qed.

Lemma select_passes_Permutation n : forall i l, select_passes i n l ≡ₚ l.
Proof.
  induction n as [|n IH]; intros i l; cbn [select_passes]; [reflexivity|].
  rewrite IH. unfold build_heap_suffix, build_heap.
  rewrite build_heap_from_Permutation, take_drop. reflexivity.
Qed.

Theorem select_nodes_sub : forall k l, exists rest, Permutation (select_nodes k l ++ rest) l.
Proof.
  intros k l. unfold select_nodes. cbv zeta.
  exists (drop (Nat.min k (length l)) (select_passes 0 (S (Nat.min k (length l))) l)).
  rewrite take_drop. apply select_passes_Permutation.
Qed.
Print Assumptions select_nodes_sub.

Theorem select_nodes_length : forall k l, length (select_nodes k l) = Nat.min k (length l).
Proof.
  intros k l. unfold select_nodes. cbv zeta.
  rewrite take_length.
  rewrite (Permutation_length (select_passes_Permutation _ _ _)). lia.
Qed.
Print Assumptions select_nodes_length.

Lemma select_nodes_submseteq k l : select_nodes k l ⊆+ l.
Proof.
  unfold select_nodes. cbv zeta. etransitivity; [apply sublist_submseteq, sublist_take|].
  apply Permutation_submseteq, select_passes_Permutation.
Qed.

(** * GetNextSuperNodes *)
(* [SelHang] is excluded by construction: when its fuel runs out the model loop answers [SelOk None]
   (Model/Select.v: at most one pass over the super nodes) *)
Lemma next_super_loop_post fuel : forall snodes pledges ignore size round0 i res,
  next_super_loop fuel snodes pledges ignore size round0 i = res ->
  match res with
  | SelOk (Some (c, r)) =>
      In c snodes /\ in_list (c_addr c) ignore = false /\ eligible pledges size c = true /\
      0 <= r < 256
  | SelOk None | SelPanic => True
  | SelHang => False
  end.
Proof.
  induction fuel as [|fuel IH]; intros snodes pledges ignore size round0 i res <-;
    cbn [next_super_loop]; [exact I|].
  cbv zeta.
  set (i' := if u8 (Z.of_nat (length snodes)) <=? i then 0 else i).
  destruct (snodes !! Z.to_nat i') as [c|] eqn:Hlk; [|exact I].
  match goal with |- context [if ?b then SelOk (Some _) else _] => destruct b eqn:Hok end.
  - apply andb_prop in Hok. destruct Hok as [Hok Hrep].
    apply andb_prop in Hok. destruct Hok as [Hign Hst].
    apply negb_true_iff, orb_false_iff in Hign. destruct Hign as [Hign Hfree].
    apply negb_false_iff in Hfree.
    split; [apply elem_of_list_In; eapply elem_of_list_lookup_2; exact Hlk|].
    split; [exact Hign|].
    split; [unfold eligible; rewrite Hfree, Hst, Hrep; reflexivity|].
    pose proof (u8_range (i' + 1)) as Hu.
    destruct (Z.of_nat (length snodes) <=? u8 (i' + 1)); lia.
  - match goal with |- context [if ?b then SelOk None else _] => destruct b end; [exact I|eapply IH; reflexivity].
Qed.

Theorem next_super_terminates : forall nodes pledges round0 ignore size,
  next_super nodes pledges round0 ignore size <> SelHang.
Proof.
  intros nodes pledges round0 ignore size Hres.
  exact (next_super_loop_post _ _ _ _ _ _ _ _ Hres).
Qed.
Print Assumptions next_super_terminates.

Theorem next_super_spec : forall nodes pledges round0 ignore size c r,
  next_super nodes pledges round0 ignore size = SelOk (Some (c, r)) ->
  In c (super_cands nodes) /\ in_list (c_addr c) ignore = false /\
  eligible pledges size c = true /\ 0 <= r < 256.
Proof.
  intros nodes pledges round0 ignore size c r Hres.
  exact (next_super_loop_post _ _ _ _ _ _ _ _ Hres).
Qed.
Print Assumptions next_super_spec.

(** * RandomSP *)

Lemma map_is_fmap {A B} (f : A -> B) (l : list A) : map f l = f <$> l.
Proof. induction l as [|x l IH]; [reflexivity|]. cbn. rewrite IH. reflexivity. Qed.

Lemma NoDup_fmap_submseteq {A B} (f : A -> B) (l1 l2 : list A) :
  l1 ⊆+ l2 -> NoDup (f <$> l2) -> NoDup (f <$> l1).
Proof.
  intros Hsub Hnd. apply (fmap_submseteq f), submseteq_Permutation in Hsub.
  destruct Hsub as (k & Hk). rewrite Hk in Hnd. apply NoDup_app in Hnd. apply Hnd.
Qed.

Lemma filter_sublist {A} (P : A -> Prop) `{forall x, Decision (P x)} (l : list A) :
  filter P l `sublist_of` l.
Proof.
  induction l as [|x l IH]; [constructor|].
  rewrite filter_cons. destruct (decide (P x)); constructor; exact IH.
Qed.

Lemma omap_length_le {A B} (f : A -> option B) (l : list A) : (length (omap f l) <= length l)%nat.
Proof.
  induction l as [|x l IH]; cbn; [lia|]. destruct (f x); cbn; lia.
Qed.


Lemma all_cands_NoDup (nodes : gmap string Node) : NoDup (c_addr <$> all_cands nodes).
Proof.
  unfold all_cands. rewrite (map_is_fmap _ (sorted_items nodes)), <- list_fmap_compose.
  change (c_addr ∘ _) with (@fst string Node). unfold sorted_items.
  rewrite merge_sort_Permutation. apply NoDup_fst_map_to_list.
Qed.

Lemma all_cands_lookup (nodes : gmap string Node) c :
  c ∈ all_cands nodes -> nodes !! c_addr c = Some (c_node c).
Proof.
  unfold all_cands. rewrite (map_is_fmap _ (sorted_items nodes)). intros Hc.
  apply elem_of_list_fmap in Hc. destruct Hc as ([k v] & -> & Hkv).
  unfold sorted_items in Hkv. rewrite merge_sort_Permutation in Hkv.
  apply elem_of_map_to_list in Hkv. exact Hkv.
Qed.

Lemma normal_cands_elem nodes pledges size c :
  c ∈ normal_cands nodes pledges size ->
  c ∈ all_cands nodes /\ eligible pledges size c = true /\ n_role (c_node c) = 0.
Proof.
  unfold normal_cands. intros Hc. apply elem_of_list_filter in Hc. destruct Hc as (HP & Hin).
  apply Is_true_eq_true, andb_prop in HP. destruct HP as (He & Hr).
  apply Z.eqb_eq in Hr. split; [exact Hin|]. split; [exact He|exact Hr].
Qed.

Lemma super_cands_elem nodes c :
  c ∈ super_cands nodes -> c ∈ all_cands nodes /\ n_role (c_node c) = 1.
Proof.
  unfold super_cands. intros Hc. apply elem_of_list_filter in Hc. destruct Hc as (HP & Hin).
  apply Is_true_eq_true, Z.eqb_eq in HP. split; [exact Hin|exact HP].
Qed.

Lemma remove_cand_sublist s l : remove_cand s l `sublist_of` l.
Proof.
  induction l as [|c l IH]; cbn [remove_cand]; [constructor|].
  destruct (String.eqb s (c_addr c)); constructor; [reflexivity|exact IH].
Qed.

Lemma remove_cand_notin s l : NoDup (c_addr <$> l) -> s ∉ c_addr <$> remove_cand s l.
Proof.
  induction l as [|c l IH]; cbn [remove_cand]; intros Hnd; [apply not_elem_of_nil|].
  rewrite fmap_cons in Hnd. apply NoDup_cons in Hnd. destruct Hnd as (Hc & Hnd).
  destruct (String.eqb_spec s (c_addr c)) as [->|Hne]; [exact Hc|].
  rewrite fmap_cons. apply not_elem_of_cons. split; [exact Hne|exact (IH Hnd)].
Qed.

Lemma remove_all_spec ignore : forall l,
  NoDup (c_addr <$> l) ->
  fold_left (fun l s => remove_cand s l) ignore l `sublist_of` l /\
  (forall s, s ∈ ignore -> s ∉ c_addr <$> fold_left (fun l s => remove_cand s l) ignore l).
Proof.
  induction ignore as [|s0 ignore IH]; intros l Hnd; cbn [fold_left].
  - split; [reflexivity|]. intros s Hs. apply elem_of_nil in Hs. contradiction.
  - pose proof (remove_cand_sublist s0 l) as Hsub0.
    destruct (IH (remove_cand s0 l)) as (Hsub & Hnot).
    { exact (NoDup_fmap_submseteq _ _ _ (sublist_submseteq _ _ Hsub0) Hnd). }
    split; [etransitivity; [exact Hsub|exact Hsub0]|].
    intros s Hs. apply elem_of_cons in Hs. destruct Hs as [->|Hs]; [|exact (Hnot s Hs)].
    (* what is left is a sublist of [remove_cand s0 l], which has lost [s0] *)
    intros Hin. apply (remove_cand_notin s0 l Hnd).
    eapply elem_of_submseteq; [exact Hin|]. apply fmap_submseteq, sublist_submseteq, Hsub.
Qed.

Lemma omap_lookup_NoDup (sel : list Cand) (idx : list Z) :
  NoDup (c_addr <$> sel) -> NoDup idx -> Forall (fun i => 0 <= i) idx ->
  NoDup (c_addr <$> omap (fun i => sel !! Z.to_nat i) idx).
Proof.
  intros Hsel. induction idx as [|i idx IH]; intros Hnd Hpos.
  - cbn. apply NoDup_nil_2.
  - apply NoDup_cons in Hnd. destruct Hnd as (Hi & Hnd).
    apply Forall_cons in Hpos. destruct Hpos as (Hi0 & Hpos).
    cbn [omap list_omap]. change (list_omap ?f ?l) with (omap f l).
    destruct (sel !! Z.to_nat i) as [c|] eqn:Hlk; [|apply IH; assumption].
    rewrite fmap_cons. apply NoDup_cons. split; [|apply IH; assumption].
    (* an equal address at another index [i'] of [idx] would make [i = i'] *)
    intros Hin. apply elem_of_list_fmap in Hin. destruct Hin as (c' & Haddr & Hc').
    apply elem_of_list_omap in Hc'. destruct Hc' as (i' & Hi' & Hlk').
    assert (Hi'0 : 0 <= i') by (rewrite Forall_forall in Hpos; apply Hpos; exact Hi').
    assert (Heq : Z.to_nat i = Z.to_nat i').
    { eapply (NoDup_lookup (c_addr <$> sel) _ _ (c_addr c) Hsel).
      - rewrite list_lookup_fmap, Hlk. reflexivity.
      - rewrite list_lookup_fmap, Hlk'. cbn. rewrite Haddr. reflexivity. }
    assert (i = i') by lia. subst i'. contradiction.
Qed.

Definition sp_cands (nodes : gmap string Node) (pledges : gmap string Pledge)
           (ignore : list string) (size : Z) : list Cand :=
  fold_left (fun l s => remove_cand s l) ignore (normal_cands nodes pledges size).

Lemma sp_cands_spec nodes pledges ignore size :
  NoDup (c_addr <$> sp_cands nodes pledges ignore size) /\
  (forall c, c ∈ sp_cands nodes pledges ignore size ->
             c ∈ normal_cands nodes pledges size /\ in_list (c_addr c) ignore = false).
Proof.
  unfold sp_cands.
  assert (Hnd : NoDup (c_addr <$> normal_cands nodes pledges size)).
  { eapply NoDup_fmap_submseteq; [|apply (all_cands_NoDup nodes)].
    apply sublist_submseteq, filter_sublist. }
  destruct (remove_all_spec ignore _ Hnd) as (Hsub & Hnot). apply sublist_submseteq in Hsub.
  split; [exact (NoDup_fmap_submseteq _ _ _ Hsub Hnd)|].
  intros c Hc. split; [exact (elem_of_submseteq _ _ _ Hc Hsub)|].
  destruct (in_list_spec (c_addr c) ignore) as [Hin|_]; [|reflexivity].
  destruct (Hnot _ Hin). apply elem_of_list_fmap. exists c. split; [reflexivity|exact Hc].
Qed.

(* every branch of [random_sp] answers the super node, if any, followed by [picks] from the candidates *)
Lemma sp_assemble nodes pledges ignore size count supl picks :
  NoDup (c_addr <$> supl) ->
  (forall c, c ∈ supl -> c ∈ all_cands nodes /\ n_role (c_node c) = 1 /\
                         eligible pledges size c = true /\ in_list (c_addr c) ignore = false) ->
  NoDup (c_addr <$> picks) ->
  (forall c, c ∈ picks -> c ∈ sp_cands nodes pledges ignore size) ->
  Z.of_nat (length supl + length picks) <= Z.max 0 count ->
  NoDup (map c_addr (supl ++ picks)) /\
  (forall c, In c (supl ++ picks) ->
     nodes !! c_addr c = Some (c_node c) /\ eligible pledges size c = true /\
     in_list (c_addr c) ignore = false) /\
  Z.of_nat (length (supl ++ picks)) <= Z.max 0 count.
Proof.
  intros Hnd1 Hsup Hnd2 Hpick Hlen.
  assert (Hpick' : forall c, c ∈ picks ->
            (c ∈ all_cands nodes /\ eligible pledges size c = true /\ n_role (c_node c) = 0) /\
            in_list (c_addr c) ignore = false).
  { intros c Hc. apply Hpick, sp_cands_spec in Hc. destruct Hc as (Hc & Hign).
    split; [exact (normal_cands_elem _ _ _ _ Hc)|exact Hign]. }
  split; [|split; [|rewrite app_length; exact Hlen]].
  - rewrite (map_is_fmap c_addr (supl ++ picks)), fmap_app. apply NoDup_app.
    split; [exact Hnd1|]. split; [|exact Hnd2].
    (* a shared address would be one entry of [nodes] with role 1 and role 0 *)
    intros a Ha1 Ha2.
    apply elem_of_list_fmap in Ha1. destruct Ha1 as (c1 & Ha1 & Hc1).
    apply elem_of_list_fmap in Ha2. destruct Ha2 as (c2 & Ha2 & Hc2).
    destruct (Hsup c1 Hc1) as (Hall1 & Hrole1 & _).
    destruct (Hpick' c2 Hc2) as ((Hall2 & _ & Hrole2) & _).
    apply all_cands_lookup in Hall1, Hall2.
    rewrite <- Ha1 in Hall1. rewrite <- Ha2, Hall1 in Hall2.
    injection Hall2 as Heq. rewrite Heq in Hrole1. lia.
  - intros c Hc. apply elem_of_list_In, elem_of_app in Hc. destruct Hc as [Hc|Hc].
    + destruct (Hsup c Hc) as (Hall & _ & Hel & Hign).
      split; [exact (all_cands_lookup _ _ Hall)|]. split; [exact Hel|exact Hign].
    + destruct (Hpick' c Hc) as ((Hall & Hel & _) & Hign).
      split; [exact (all_cands_lookup _ _ Hall)|]. split; [exact Hel|exact Hign].
Qed.

Lemma random_sp_sound nodes pledges round0 seed count ignore size sps r :
  random_sp nodes pledges round0 seed count ignore size = SelOk (sps, r) ->
  NoDup (map c_addr sps) /\
  (forall c, In c sps ->
     nodes !! c_addr c = Some (c_node c) /\ eligible pledges size c = true /\
     in_list (c_addr c) ignore = false) /\
  Z.of_nat (length sps) <= Z.max 0 count.
Proof.
  intros Hres. unfold random_sp in Hres.
  destruct (next_super nodes pledges round0 ignore size) as [sup| |] eqn:Hns;
    [|discriminate|discriminate].
  cbv zeta in Hres. fold (sp_cands nodes pledges ignore size) in Hres.
  (* what the super node contributes, so that both cases of [sup] go through the same argument *)
  set (supl := match sup with Some (c, _) => [c] | None => [] end) in Hres.
  set (supn := match sup with Some _ => 1 | None => 0 end) in Hres.
  assert (Hsupn : supn = Z.of_nat (length supl)) by (destruct sup as [[? ?]|]; reflexivity).
  assert (Hnd1 : NoDup (c_addr <$> supl)).
  { destruct sup as [[? ?]|]; [apply NoDup_singleton|apply NoDup_nil_2]. }
  assert (Hsup : forall c, c ∈ supl -> c ∈ all_cands nodes /\ n_role (c_node c) = 1 /\
                   eligible pledges size c = true /\ in_list (c_addr c) ignore = false).
  { destruct sup as [[c0 r0]|]; intros c Hc; [|apply elem_of_nil in Hc; contradiction].
    apply elem_of_list_singleton in Hc. subst c.
    apply next_super_spec in Hns. destruct Hns as (Hin & Hign & Hel & _).
    apply elem_of_list_In, super_cands_elem in Hin. destruct Hin as (Hall & Hrole).
    split; [exact Hall|]. split; [exact Hrole|]. split; [exact Hel|exact Hign]. }
  clearbody supl supn. clear Hns.
  destruct (sp_cands_spec nodes pledges ignore size) as (Hcnd & _).
  set (cands := sp_cands nodes pledges ignore size) in *.
  destruct ((supn =? 1) && (count =? 1)) eqn:E1.
  { apply andb_prop in E1. destruct E1 as (E1a & E1b).
    apply Z.eqb_eq in E1a. apply Z.eqb_eq in E1b.
    injection Hres as <- <-. rewrite <- (app_nil_r supl).
    apply sp_assemble; [exact Hnd1|exact Hsup|apply NoDup_nil_2| |cbn [length]; lia].
    intros c Hc. apply elem_of_nil in Hc. contradiction. }
  destruct (Z.leb_spec (supn + Z.of_nat (length cands)) count) as [E2|E2].
  { injection Hres as <- <-. apply sp_assemble; [exact Hnd1|exact Hsup|exact Hcnd|auto|lia]. }
  destruct (Z.ltb_spec (count - supn) 0) as [E3|E3]; [discriminate|].
  set (maxc := if (count - supn) * 2 <? Z.of_nat (length cands)
               then (count - supn) * 2 else Z.of_nat (length cands)) in *.
  destruct (random_index seed maxc (count - supn)) as [idx| |] eqn:Hri; [|discriminate|discriminate].
  apply random_index_sound in Hri. destruct Hri as (Hinodup & Hirange & Hilen & Hinil).
  pose proof (select_nodes_submseteq (Z.to_nat maxc) cands) as Hselsub.
  set (sel := select_nodes (Z.to_nat maxc) cands) in *.
  injection Hres as <- <-. apply sp_assemble; [exact Hnd1|exact Hsup| | |].
  - apply omap_lookup_NoDup; [exact (NoDup_fmap_submseteq _ _ _ Hselsub Hcnd)|exact Hinodup|].
    eapply Forall_impl; [exact Hirange|]. intros i Hi. cbv beta in Hi. lia.
  - intros c Hc. apply elem_of_list_omap in Hc. destruct Hc as (i & _ & Hi).
    apply elem_of_list_lookup_2 in Hi. exact (elem_of_submseteq _ _ _ Hi Hselsub).
  - pose proof (omap_length_le (fun i => sel !! Z.to_nat i) idx) as Hle.
    destruct (decide (0 < count - supn < maxc)) as [Hc|Hc];
      [apply Hilen in Hc|apply Hinil in Hc; subst idx; cbn [length] in Hle]; lia.
Qed.

(* as Properties/C15 states it; [random_sp_sound] shows that the sign of the seed does not matter *)
Theorem random_sp_spec : forall nodes pledges round0 seed count ignore size sps r,
  0 <= seed ->
  random_sp nodes pledges round0 seed count ignore size = SelOk (sps, r) ->
  NoDup (map c_addr sps) /\
  (forall c, In c sps ->
     nodes !! c_addr c = Some (c_node c) /\ eligible pledges size c = true /\
     in_list (c_addr c) ignore = false) /\
  Z.of_nat (length sps) <= Z.max 0 count.
Proof. intros nodes pledges round0 seed count ignore size sps r _. apply random_sp_sound. Qed.
Print Assumptions random_sp_spec.

Theorem random_sp_terminates_partial : forall nodes pledges round0 seed count ignore size,
  0 <= seed -> seed < 10 ^ 400 ->
  random_sp nodes pledges round0 seed count ignore size <> SelHang.
Proof.
  intros nodes pledges round0 seed count ignore size Hs0 Hs1. unfold random_sp.
  pose proof (next_super_terminates nodes pledges round0 ignore size) as Hns.
  destruct (next_super nodes pledges round0 ignore size) as [sup| |]; [|contradiction|discriminate].
  cbv zeta.
  repeat (match goal with |- (if ?b then _ else _) <> _ => destruct b end; [discriminate|]).
  match goal with |- match random_index ?s ?m ?c with _ => _ end <> _ =>
    destruct (random_index_terminates_partial s m c Hs0 Hs1) as (Hh & _);
    destruct (random_index s m c) end; [discriminate|contradiction|discriminate].
Qed.
Print Assumptions random_sp_terminates_partial.

(* the name under which Properties/C02 and C15 cite it *)
Theorem random_sp_terminates : forall nodes pledges round0 seed count ignore size,
  0 <= seed -> seed < 10 ^ 400 ->
  random_sp nodes pledges round0 seed count ignore size <> SelHang.
Proof. exact random_sp_terminates_partial. Qed.
Print Assumptions random_sp_terminates.


(** * Examples *)
Module SelectExamples.
  Example ri_ex1 : random_index 0 3 2 = SelOk [0; 1].
  Proof. vm_compute. reflexivity. Qed.
  Example ri_ex2 : random_index 12345 10 3 = SelOk [5; 4; 3].
  Proof. vm_compute. reflexivity. Qed.
  (* duplicate draws, then the seed runs out and the smallest free indices are taken *)
  Example ri_ex3 : random_index 999 5 4 = SelOk [4; 0; 1; 2].
  Proof. vm_compute. reflexivity. Qed.
  Example ri_ex4 : random_index 1111 11 3 = SelOk [0; 1; 2].
  Proof. vm_compute. reflexivity. Qed.
  Example ri_ex5 : random_index 7 3 5 = SelOk [].
  Proof. vm_compute. reflexivity. Qed.
  Example ri_ex6 : random_index (10 ^ 404) 3 2 = SelHang.
  Proof. exact (random_index_pow10 403). Qed.
  Example ri_ex7 : random_index (10 ^ 403) 3 2 = SelOk [0; 1].
  Proof. exact (random_index_pow10 402). Qed.

  Definition ex_super : Node := mkNode "peer-s" 9000 13 50 [] 1 "".
  Definition ex_a : Node := mkNode "peer-a" 8500 13 70 [] 0 "".
  Definition ex_b : Node := mkNode "peer-b" 9500 13 70 [] 0 "".
  Definition ex_c : Node := mkNode "peer-c" 9100 13 90 [] 0 "".
  Definition ex_pl : Pledge := mkPledge 0 0 0 0 1000 0.
  Definition ex_nodes : gmap string Node :=
    list_to_map [("s", ex_super); ("a", ex_a); ("b", ex_b)].
  Definition ex_nodes3 : gmap string Node :=
    list_to_map [("a", ex_a); ("b", ex_b); ("c", ex_c)].
  Definition ex_pledges : gmap string Pledge :=
    list_to_map [("s", ex_pl); ("a", ex_pl); ("b", ex_pl); ("c", ex_pl)].

  Example sn_ex1 : map c_addr (select_nodes 2 (all_cands ex_nodes3)) = ["c"; "b"].
  Proof. vm_compute. reflexivity. Qed.

  Example ns_ex1 : next_super ex_nodes ex_pledges 0 [] 10 = SelOk (Some (mkCand "s" ex_super, 0)).
  Proof. vm_compute. reflexivity. Qed.

  (* one super node and one of two normal nodes drawn by index *)
  Example sp_ex1 : random_sp ex_nodes ex_pledges 0 7 2 [] 10 =
                   SelOk ([mkCand "s" ex_super; mkCand "a" ex_a], Some 0).
  Proof. vm_compute. reflexivity. Qed.
  (* not more candidates than requested: all of them *)
  Example sp_ex2 : random_sp ex_nodes ex_pledges 0 7 3 [] 10 =
                   SelOk ([mkCand "s" ex_super; mkCand "a" ex_a; mkCand "b" ex_b], Some 0).
  Proof. vm_compute. reflexivity. Qed.
  Example sp_ex3 : random_sp ex_nodes ex_pledges 0 7 2 ["b"] 10 =
                   SelOk ([mkCand "s" ex_super; mkCand "a" ex_a], Some 0).
  Proof. vm_compute. reflexivity. Qed.
  (* no super node: heap selection then index draw *)
  Example sp_ex4 : random_sp ex_nodes3 ex_pledges 0 7 2 [] 10 =
                   SelOk ([mkCand "b" ex_b; mkCand "c" ex_c], None).
  Proof. vm_compute. reflexivity. Qed.

  Example sp_ex1_facts :
    NoDup (map c_addr [mkCand "s" ex_super; mkCand "a" ex_a]) /\
    (forall c, In c [mkCand "s" ex_super; mkCand "a" ex_a] ->
       ex_nodes !! c_addr c = Some (c_node c) /\ eligible ex_pledges 10 c = true /\
       in_list (c_addr c) [] = false) /\
    Z.of_nat (length [mkCand "s" ex_super; mkCand "a" ex_a]) <= Z.max 0 2.
  Proof. apply (random_sp_spec ex_nodes ex_pledges 0 7 2 [] 10 _ (Some 0)); [lia|exact sp_ex1]. Qed.
End SelectExamples.

(* RandomSP inherits the hang of RandomIndex for seeds of more than 400 digits: the run of
   [SelectExamples.sp_ex4] with the seed of [SelectExamples.ri_ex6] *)
Theorem random_sp_terminates_refuted :
  exists nodes pledges round0 seed count ignore size,
    0 <= seed /\ random_sp nodes pledges round0 seed count ignore size = SelHang.
Proof.
  exists SelectExamples.ex_nodes3, SelectExamples.ex_pledges, 0, (10 ^ 404), 2, [], 10.
  split; [apply Z.pow_nonneg; lia|].
  (* only the tables are evaluated: the draw is [random_index (10 ^ 404) 3 2], known from [ri_ex6] *)
  unfold random_sp. pose proof SelectExamples.ri_ex6 as Hri. revert Hri.
  generalize (random_index (10 ^ 404)). intros ri Hri.
  vm_compute. rewrite Hri. reflexivity.
Qed.
Print Assumptions random_sp_terminates_refuted.
