(* C08: a block never mints more than the subsidy of the CURRENT halving age (a conjunct of Accumulator.bb_post;
   Accumulator.begin_block_mint states the un-halved bound that follows from it), and that subsidy never grows again. *)
From SaoVerif Require Import Base.Prelude Base.Ints Base.Dec Model.Did Model.Types Model.Monad Model.Bank Model.Select
     Model.Node Model.Storage Model.Sao Model.Hooks Model.App Model.Spec.
From SaoVerif Require Import Proofs.Accumulator.
From RecordUpdate Require Import RecordUpdate.
Import RecordSetNotations.

Theorem begin_block_mint_age : forall cx s s' d,
  0 <= np_reward (nparams s) ->
  (forall po, pool s = Some po -> po_reward po < TOTAL_REWARD) ->
  step cx s OBeginBlock = (s', OutBlock BOk d) ->
  0 <= supply s' - supply s <= subsidy_cap s.
Proof.
  intros cx s s' d Hnp _ Hstep. pose proof (step_bb_post cx s) as Hb. rewrite Hstep in Hb.
  destruct Hb as (m & Hm & Hsup & _ & _ & _ & Hcap & _). apply Hcap in Hnp. simpl in Hsup. lia.
Qed.

Lemma halving_age_mono po po' :
  po_reward po <= po_reward po' -> po_reward po' < TOTAL_REWARD -> halving_age po <= halving_age po'.
Proof.
  intros H1 H2. unfold halving_age. apply Z.log2_le_mono.
  assert (0 < TOTAL_REWARD) by (unfold TOTAL_REWARD; lia).
  apply Z.div_le_compat_l; lia.
Qed.

Theorem begin_block_cap_decreases : forall cx s s' d,
  0 <= np_reward (nparams s) ->
  (forall po, pool s = Some po -> po_reward po < TOTAL_REWARD) ->
  (forall po', pool s' = Some po' -> po_reward po' < TOTAL_REWARD) ->
  step cx s OBeginBlock = (s', OutBlock BOk d) ->
  subsidy_cap s' <= subsidy_cap s.
Proof.
  intros cx s s' d Hnp _ Hlt' Hstep. pose proof (step_bb_post cx s) as Hb. rewrite Hstep in Hb. simpl in Hb.
  destruct Hb as (m & Hm & _ & _ & _ & Hnpar & _ & Hp).
  unfold subsidy_cap. rewrite Hnpar.
  destruct (pool s) as [po|] eqn:Hpo.
  - destruct Hp as (_ & po' & Hpo' & Hr & _). rewrite Hpo'.
    apply shiftr_anti; [exact Hnp|]. split; [apply Z.log2_nonneg|].
    apply halving_age_mono; [lia|]. apply Hlt', Hpo'.
  - destruct Hp as [-> _]. lia.
Qed.

Example subsidy_cap_age1 :
  let po := mkPool 10 200000000000000 0 0 0 0 10 0 in
  halving_age po = 1 /\ Z.shiftr 1000 (halving_age po) = 500.
Proof. vm_compute. split; reflexivity. Qed.

Print Assumptions begin_block_mint_age.
Print Assumptions begin_block_cap_decreases.
