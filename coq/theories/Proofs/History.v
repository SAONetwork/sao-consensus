(* C16, version linearity at the history level: the committed history of a data model only
   grows, and everything but its latest entry is immutable -- each step of a model's history is
   "nothing", "append one version" or "replace the latest version" (force-push), so along any
   run during which the model exists its history is a single chain ([hist_le] is the reflexive-
   transitive closure of those three moves). A model that appears is created by a Store naming
   its data id and starts with the empty history; the owner of a model never changes.

   Every function of the model that writes the metadata table is given a Hoare
   triple (Proofs/Hoare.v) from "the table equals that of the state the function started in" to
   the relation [Rnc]; functions that do not write the table are covered by the [keeps metas]
   lemmas of Proofs/Authz.v; handlers compose with [mok] because [Rnc] is a preorder. Store is
   the one handler that creates models and is treated separately. Error returns are covered
   (their writes are kept in block phases). *)
From SaoVerif Require Import Base.Prelude Base.Ints Base.Dec Model.Did Model.Types Model.Monad Model.Bank Model.Select
     Model.Node Model.Storage Model.Sao Model.Hooks Model.App Model.Spec Model.Inv Model.Monitors Proofs.Frame Proofs.RefInt
     Proofs.Authz Proofs.Hoare.
From RecordUpdate Require Import RecordUpdate.
Import RecordSetNotations.

(** * the chain order on histories *)
(* the length clause excludes dropping the latest entry: [removelast [x; y]] is a prefix of [[x]] *)
Definition hist_le (a b : list string) : Prop := (length a <= length b)%nat /\ removelast a `prefix_of` b.

Lemma removelast_length {A} (l : list A) : length (removelast l) = (length l - 1)%nat.
Proof. induction l as [|x [|y l] IH]; cbn in *; try lia. Qed.
Lemma removelast_prefix {A} (l : list A) : removelast l `prefix_of` l.
Proof.
  destruct l as [|x l]; [reflexivity|].
  exists [List.last (x :: l) x]. apply app_removelast_last. discriminate.
Qed.
Lemma removelast_prefix_mono {A} (a b : list A) : a `prefix_of` b -> removelast a `prefix_of` removelast b \/ a = b.
Proof.
  intros [k ->]. destruct k as [|y k]; [right; rewrite app_nil_r; reflexivity|left].
  rewrite removelast_app by discriminate. etransitivity; [apply removelast_prefix|]. apply prefix_app_r. reflexivity.
Qed.

Global Instance hist_le_po : PreOrder hist_le.
Proof.
  split.
  - intros a. split; [lia|apply removelast_prefix].
  - intros a b c [L1 P1] [L2 P2]. split; [lia|].
    destruct (decide (length a = 0%nat)) as [Ha|Ha].
    { destruct a; [|discriminate Ha]. cbn. apply prefix_nil. }
    (* removelast a is a prefix of b of length |a|-1 <= |b|-1, hence a prefix of removelast b *)
    assert (Hp : removelast a `prefix_of` removelast b).
    { destruct P1 as [k Hk]. destruct k as [|y k].
      - rewrite app_nil_r in Hk. subst b. rewrite removelast_length in L1. lia.
      - rewrite Hk. rewrite removelast_app by discriminate. apply prefix_app_r. reflexivity. }
    etransitivity; [exact Hp|exact P2].
Qed.

Lemma hist_le_app a v : hist_le a (a ++ [v]).
Proof. split; [rewrite app_length; cbn; lia|]. etransitivity; [apply removelast_prefix|]. apply prefix_app_r. reflexivity. Qed.
Lemma hist_le_replace a v : hist_le a (removelast a ++ [v]).
Proof. split; [rewrite app_length, removelast_length; cbn; lia|]. apply prefix_app_r. reflexivity. Qed.

(** * the relation every operation but Store respects *)
Definition same_model (a b : Meta) : Prop := m_owner b = m_owner a /\ hist_le (m_commits a) (m_commits b).
Global Instance same_model_po : PreOrder same_model.
Proof.
  split; [intros a; split; reflexivity|].
  intros a b c [O1 H1] [O2 H2]. split; [congruence|etransitivity; eassumption].
Qed.

Definition Rnc (s s' : State) : Prop :=
  forall d b, metas s' !! d = Some b -> exists a, metas s !! d = Some a /\ same_model a b.
Global Instance Rnc_po : PreOrder Rnc.
Proof.
  split.
  - intros s d b H. exists b. split; [exact H|reflexivity].
  - intros s1 s2 s3 H12 H23 d c Hc. destruct (H23 d c Hc) as (b & Hb & Hbc). destruct (H12 d b Hb) as (a & Ha & Hab).
    exists a. split; [exact Ha|etransitivity; eassumption].
Qed.

Definition same_metas (b t : State) : Prop := metas t = metas b.

Lemma Rnc_eq b t : same_metas b t -> Rnc b t.
Proof. intros E d x H. rewrite E in H. exists x. split; [exact H|reflexivity]. Qed.
Lemma Rnc_sub b t : (forall d x, metas t !! d = Some x -> metas b !! d = Some x) -> Rnc b t.
Proof. intros Hs d x H. exists x. split; [apply Hs, H|reflexivity]. Qed.
Lemma Rnc_ins b s0 t d a m' :
  same_metas b t -> same_metas b s0 -> metas s0 !! d = Some a -> same_model a m' -> Rnc b (t <| metas ::= <[d := m']> |>).
Proof.
  unfold same_metas. intros Et E0 Ha Hs k x H. unfold set in H; cbn in H. rewrite Et in H. rewrite E0 in Ha.
  destruct (decide (k = d)) as [->|Hne].
  - rewrite lookup_insert in H. injection H as <-. exists a. split; assumption.
  - rewrite lookup_insert_ne in H by congruence. exists x. split; [exact H|reflexivity].
Qed.
Lemma keeps_Rnc {A} (m : M A) : keeps metas m -> mok Rnc true m.
Proof. intros H s. specialize (H s). destruct (m s); auto; apply Rnc_eq; exact H. Qed.

(* [keeps] is Authz's here and Frame's in [ht_keeps]: the two are convertible *)
Lemma ht_km {A} b (E : State -> Prop) (m : M A) :
  (forall t, same_metas b t -> E t) -> keeps metas m -> ht (same_metas b) m (fun _ t' => same_metas b t') E.
Proof. intros HE H. eapply ht_conseq; [apply (ht_keeps metas (fun x => x = metas b)), H| | |]; cbv beta; auto. Qed.

Lemma mok_same_metas {A} (m : M A) : (forall b, ht (same_metas b) m (fun _ => Rnc b) (Rnc b)) -> mok Rnc true m.
Proof. intros H. apply mok_ht. intros b. eapply ht_pre; [apply H|intros t <-; reflexivity]. Qed.

(** * the functions that write the metadata table *)
Ltac same_metas_of_eq := let t := fresh "t" in let E := fresh "E" in intros t E; subst t; first [assumption | reflexivity | (unfold same_metas; congruence)].

(* [s0 <- get]: go on under [same_metas b], with [same_metas b s0] in the context *)
Ltac h_get s0 H := apply ht_bind_get; intros s0 H; lazymatch type of H with same_metas ?b _ => apply (ht_pre _ _ _ (same_metas b)); [|same_metas_of_eq] end.
Ltac h_fail := apply ht_fail; intros ? ?; apply Rnc_eq; assumption.
Ltac h_skip := apply ht_ret; intros ? ?; apply Rnc_eq; assumption.
Ltac h_km0 := eapply ht_bind; [apply (ht_km _ _ _ (Rnc_eq _)); first [solve [kt_leaf] | solve [kt]] | ].
Ltac h_km := h_km0; intros ?.

Lemma extend_meta_duration_h data e : mok Rnc true (extend_meta_duration data e).
Proof.
  apply mok_same_metas. intros b. unfold extend_meta_duration. h_get s0 Hs0.
  destruct (metas s0 !! data) as [m|] eqn:Em; [|h_skip].
  cbv zeta. destruct (_ <? _); [|h_skip].
  h_km. h_km. apply ht_modify. intros t Ht. apply (Rnc_ins b s0 t _ m _ Ht Hs0 Em). split; reflexivity.
Qed.

Lemma update_permission_h owner data ro rw : mok Rnc true (update_permission owner data ro rw).
Proof.
  apply mok_same_metas. intros b. unfold update_permission. h_get s0 Hs0.
  destruct (metas s0 !! data) as [m|] eqn:Em; [|h_fail].
  destruct (negb _); [h_fail|].
  apply ht_modify. intros t Ht. apply (Rnc_ins b s0 t _ m _ Ht Hs0 Em). split; reflexivity.
Qed.

Lemma remove_model_h b d key h :
  ht (same_metas b) (modify (fun s => s <| metas ::= delete d |> <| models ::= delete key |>) ;;; remove_data_expire d h)
     (fun _ => Rnc b) (Rnc b).
Proof.
  eapply ht_bind with (Qm := fun _ t => Rnc b t).
  - apply ht_modify. intros t Ht. apply Rnc_sub. intros k x. unfold set; cbn. rewrite Ht.
    intros H. apply lookup_delete_Some in H. apply H.
  - intros []. apply (ht_mok Rnc true _ b). apply keeps_Rnc. kt_leaf.
Qed.

Lemma delete_meta_h data : mok Rnc true (delete_meta data).
Proof.
  apply mok_same_metas. intros b. unfold delete_meta. h_get s0 Hs0.
  destruct (metas s0 !! data) as [m|]; [apply remove_model_h|h_fail].
Qed.

Lemma reset_meta_duration_ht cx d m b :
  ht (same_metas b) (reset_meta_duration cx d m) (fun m' t => same_metas b t /\ m_owner m' = m_owner m /\ m_commits m' = m_commits m) (Rnc b).
Proof.
  unfold reset_meta_duration. h_get s0 Hs0. cbv zeta.
  destruct (_ =? _); [apply ht_ret; intros t Ht; auto|].
  h_km. h_km. apply ht_ret. intros t Ht. auto.
Qed.

Lemma rollback_meta_h cx data : mok Rnc true (rollback_meta cx data).
Proof.
  apply mok_same_metas. intros b. unfold rollback_meta. h_get s0 Hs0.
  destruct (metas s0 !! data) as [m|] eqn:Em; [|h_skip].
  destruct (last_opt (m_commits m)) as [lastv|]; [|apply remove_model_h].
  destruct (last_opt (m_orders m)) as [lo|]; [|apply ht_panic].
  cbv zeta. eapply ht_bind; [apply reset_meta_duration_ht|]. intros m2.
  apply ht_modify. intros t (Ht & Ho & Hc). apply (Rnc_ins b s0 t _ m _ Ht Hs0 Em).
  split; [rewrite Ho; reflexivity|rewrite Hc; reflexivity].
Qed.

Lemma update_meta_h cx oid o : mok Rnc true (update_meta cx oid o).
Proof.
  apply mok_same_metas. intros b. unfold update_meta. h_get s0 Hs0.
  destruct (negb _); [h_fail|].
  destruct (metas s0 !! o_data o) as [m|] eqn:Em; [|h_fail].
  destruct (negb _); [h_fail|].
  eapply ht_bind with (Qm := fun m' t => same_metas b t /\ same_model m m').
  - destruct (o_op o =? 1).
    { apply ht_ret. intros t Ht. split; [exact Ht|]. split; [reflexivity|]. cbn. apply hist_le_app. }
    destruct (o_op o =? 2).
    { destruct (last_opt (m_commits m)) as [lastv|]; [|apply ht_panic].
      h_km0. intros [rev_left sids]. h_km. cbv zeta.
      eapply ht_conseq; [apply reset_meta_duration_ht|intros t Ht; exact Ht| |intros t Ht; exact Ht].
      cbv beta. intros m' t (Ht & Ho & Hc). split; [exact Ht|]. split; [rewrite Ho; reflexivity|]. rewrite Hc. cbn. apply hist_le_replace. }
    destruct (o_op o =? 3).
    { apply ht_ret. intros t Ht. split; [exact Ht|]. split; reflexivity. }
    h_fail.
  - intros m'. apply ht_modify. intros t (Ht & Hs). apply (Rnc_ins b s0 t _ m _ Ht Hs0 Em). exact Hs.
Qed.

(** * the handlers *)
Create HintDb hist discriminated.
Global Hint Resolve extend_meta_duration_h update_permission_h delete_meta_h rollback_meta_h update_meta_h : hist.

Ltac hm_leaf := first [ solve [auto with hist nocore] | solve [apply keeps_Rnc; first [kt_leaf | kt]] ].
Ltac hm := mok_walk ltac:(apply Rnc_eq; reflexivity) hm_leaf.

Lemma cancel_order_h cx oid : mok Rnc true (cancel_order cx oid).
Proof. unfold cancel_order. hm. Qed.
Global Hint Resolve cancel_order_h : hist.

Lemma sao_complete_h cx c p oid cid sz ok : mok Rnc true (sao_complete cx c p oid cid sz ok).
Proof. unfold sao_complete. hm. Qed.

Lemma sao_cancel_h cx c p oid : mok Rnc true (sao_cancel cx c p oid).
Proof. unfold sao_cancel. hm. Qed.

Lemma mt_renew_order o : keeps metas (renew_order o).
Proof. unfold renew_order. kt. Qed.
Global Hint Resolve mt_renew_order : mt.

Lemma renew_one_h cx m sd data : mok Rnc true (renew_one cx m sd data).
Proof.
  unfold renew_one. hm.
  all: try (mok_loop; hm; auto).
Qed.
Global Hint Resolve renew_one_h : hist.

Lemma sao_renew_h cx m : mok Rnc true (sao_renew cx m).
Proof. unfold sao_renew. hm. Qed.

Lemma sao_terminate_h cx c p owner data sg : mok Rnc true (sao_terminate cx c p owner data sg).
Proof.
  unfold sao_terminate. hm.
  all: try (mok_loop; hm; auto).
Qed.

Lemma sao_update_permission_h cx c p owner data ro rw sg v : mok Rnc true (sao_update_permission cx c p owner data ro rw sg v).
Proof. unfold sao_update_permission. hm. Qed.


(** * the block phases *)
Lemma handle_timeout_order_h cx oid : mok Rnc true (handle_timeout_order cx oid).
Proof.
  unfold handle_timeout_order. hm.
  all: try (mok_loop; hm; auto).
Qed.
Global Hint Resolve handle_timeout_order_h : hist.

Lemma handle_expired_shard_h cx sid : mok Rnc true (handle_expired_shard cx sid).
Proof. unfold handle_expired_shard. hm. Qed.
Global Hint Resolve handle_expired_shard_h : hist.

Lemma end_block_sao_h cx : mok Rnc true (end_block_sao cx).
Proof. unfold end_block_sao. hm. Qed.

Lemma end_block_model_h cx : mok Rnc true (end_block_model cx).
Proof. unfold end_block_model. hm. Qed.

Lemma mt_end_block_node cx : keeps metas (end_block_node cx).
Proof. unfold end_block_node, do_penalty. kt. Qed.

Lemma end_block_h cx evs : mok Rnc true (end_block cx evs).
Proof.
  unfold end_block. apply mok_bind; try exact _; [apply keeps_Rnc, mv_mt, mv_staking_tx|intros _].
  apply mok_bind; try exact _; [apply end_block_sao_h|intros _].
  apply mok_bind; try exact _; [apply keeps_Rnc, mt_end_block_node|intros _]. apply end_block_model_h.
Qed.

(** * Store: the one operation that creates models *)
Definition Rstore (m : StoreMsg) (b t : State) : Prop :=
  forall k x, metas t !! k = Some x ->
    (exists a, metas b !! k = Some a /\ same_model a x) \/
    (metas b !! k = None /\ k = st_data m /\ m_commits x = [] /\ m_owner x = st_owner m).
Lemma Rstore_Rnc m b t : Rnc b t -> Rstore m b t.
Proof. intros H k x Hk. left. apply (H k x Hk). Qed.
Lemma Rstore_eq m b t : same_metas b t -> Rstore m b t.
Proof. intros H. apply Rstore_Rnc, Rnc_eq, H. Qed.

Lemma update_meta_status_commit_ht cx oid o b :
  ht (same_metas b) (update_meta_status_commit cx oid o) (fun _ t' => Rnc b t') (Rnc b).
Proof.
  unfold update_meta_status_commit. h_get s0 Hs0.
  destruct (metas s0 !! o_data o) as [m|] eqn:Em; [|h_fail].
  destruct (negb _); [h_fail|]. cbv zeta. destruct (_ <? _); [h_fail|].
  eapply ht_bind with (Qm := fun m' t => same_metas b t /\ same_model m m').
  - destruct (_ <? _).
    + h_km. h_km. apply ht_ret. intros t Ht. split; [exact Ht|split; reflexivity].
    + apply ht_ret. intros t Ht. split; [exact Ht|reflexivity].
  - intros m'. apply ht_modify. intros t (Ht & Hs). apply (Rnc_ins b s0 t _ m _ Ht Hs0 Em). exact Hs.
Qed.

Lemma new_meta_ht cx o (msg : StoreMsg) nm b :
  m_commits nm = [] -> m_owner nm = st_owner msg ->
  ht (same_metas b) (new_meta cx o (st_data msg) nm) (fun _ t' => Rstore msg b t') (Rstore msg b).
Proof.
  intros Hc Ho. unfold new_meta. h_get s0 Hs0.
  destruct (negb _); [apply ht_fail; intros; apply Rstore_eq; assumption|].
  destruct (bool_decide (is_Some (metas s0 !! st_data msg))) eqn:Ex; [apply ht_fail; intros; apply Rstore_eq; assumption|].
  destruct (bool_decide (is_Some (models s0 !! meta_key nm))); [apply ht_fail; intros; apply Rstore_eq; assumption|].
  apply bool_decide_eq_false in Ex. assert (Hn : metas b !! st_data msg = None).
  { rewrite <- Hs0. destruct (metas s0 !! st_data msg) eqn:E; [exfalso; apply Ex; eexists; reflexivity|reflexivity]. }
  eapply ht_bind with (Qm := fun _ t => Rstore msg b t).
  - apply ht_modify. intros t Ht k x. unfold set; cbn. rewrite Ht. intros H.
    destruct (decide (k = st_data msg)) as [->|Hne].
    + rewrite lookup_insert in H. injection H as <-. right. auto.
    + rewrite lookup_insert_ne in H by congruence. left. exists x. split; [exact H|reflexivity].
  - intros []. intros t Ht. pose proof (mt_set_data_expire (st_data msg) (u64 (o_created o + o_duration o)) t) as K.
    destruct (set_data_expire _ _ t); auto; intros k x; rewrite K; apply Ht.
Qed.

Ltac s_km tac := eapply ht_bind; [apply (ht_km _ _ _ (Rstore_eq _ _)); tac|].

Ltac s_fail := apply ht_fail; intros ? ?; apply Rstore_eq; assumption.
(* one step into [sao_store] in front of the next call; [leaf] closes an error return *)
Ltac store_step leaf :=
  cbv beta;
  lazymatch goal with
  | |- ht _ (let _ := _ in _) _ _ => cbv zeta
  | |- ht _ (let '(_, _) := ?x in _) _ _ => destruct x eqn:?
  | |- ht _ (bind get _) _ _ => let s0 := fresh "s" in let H := fresh "Hs" in h_get s0 H
  | |- ht _ (fail _) _ _ => leaf
  | |- ht _ (panic _) _ _ => apply ht_panic
  | |- ht _ (if ?c then _ else _) _ _ => destruct c eqn:?
  | |- ht _ (match ?x with _ => _ end) _ _ => first [is_var x; destruct x | destruct x eqn:?]
  end.
Ltac s_step := store_step s_fail.

Lemma sao_store_ht cx m b :
  ht (same_metas b) (sao_store cx m) (fun _ t' => Rstore m b t') (Rstore m b).
Proof.
  unfold sao_store. repeat s_step.
  s_km ltac:(kt); intros pay0.
  repeat s_step.
  s_km ltac:(kt); intros isp.
  s_km ltac:(destruct isp; kt); intros sps.
  repeat s_step.
  s_km ltac:(kt); intros payer.
  repeat s_step.
  s_km ltac:(kt); intros [].
  s_km ltac:(kt); intros [oid o2].
  s_km ltac:(destruct isp; kt); intros [].
  repeat s_step.
  - eapply ht_conseq; [apply (update_meta_status_commit_ht _ _ _ b)| | |]; cbv beta; auto; intros; apply Rstore_Rnc; assumption.
  - apply new_meta_ht; reflexivity.
Qed.

(** * every operation *)
Definition not_store (op : Op) : Prop := match op with OStore _ => False | _ => True end.

Lemma step_rel_model (R : State -> State -> Prop) `{!PreOrder R} (P : Op -> Prop) cx :
  (forall A (m : M A), keeps model_view m -> mok R true m) ->
  (forall evs, mok R true (end_block cx evs)) ->
  (forall m, P (OStore m) -> mok R true (sao_store cx m)) ->
  (forall c p oid cid sz ok, mok R true (sao_complete cx c p oid cid sz ok)) ->
  (forall c p oid, mok R true (sao_cancel cx c p oid)) ->
  (forall m, mok R true (sao_renew cx m)) ->
  (forall c p owner data sg, mok R true (sao_terminate cx c p owner data sg)) ->
  (forall c p owner data ro rw sg v, mok R true (sao_update_permission cx c p owner data ro rw sg v)) ->
  forall s op, P op -> R s (fst (step cx s op)).
Proof.
  intros Hk Heb Hstore Hcomplete Hcancel Hrenew Hterminate Hpermission. assert (Hpg : forall s p, R s (with_pg s p)).
  { intros s p. apply (Hk _ (modify (fun s => with_pg s p))). apply keeps_modify. reflexivity. }
  apply (step_rel R P cx); auto using mv_begin_block.
  intros op m HP Htx. destruct op; cbn in Htx; try discriminate; injection Htx as <-.
  - apply Hk, mv_lift_did.
  - apply Hk, mv_node_create.
  - apply Hk, mv_node_reset.
  - apply Hk, mv_add_vstorage.
  - apply Hk, mv_remove_vstorage.
  - apply Hk, keeps_bind; [apply mv_claim_reward|intros; apply keeps_ret].
  - apply Hstore, HP.
  - apply Hk, mv_sao_ready.
  - apply Hcomplete.
  - apply Hcancel.
  - apply Hrenew.
  - apply Hterminate.
  - apply Hk, mv_sao_migrate.
  - apply Hpermission.
  - apply Hk, mv_report_faults.
  - apply Hk, mv_recover_faults.
  - apply Hk, mv_send_strict.
  - apply Hk, mv_staking_tx.
Qed.

Theorem step_history_nostore : forall cx s op, not_store op -> Rnc s (fst (step cx s op)).
Proof.
  intros cx. apply (step_rel_model Rnc not_store cx);
    auto using end_block_h, sao_complete_h, sao_cancel_h, sao_renew_h, sao_terminate_h, sao_update_permission_h.
  - intros A m H. apply keeps_Rnc, mv_mt, H.
  - intros m [].
Qed.

Theorem step_history_store : forall cx s m, Rstore m s (fst (step cx s (OStore m))).
Proof.
  intros cx s m. rewrite step_state. cbn [tx_of]. rewrite deliver_state.
  pose proof (sao_store_ht cx m s s eq_refl) as H. destruct (sao_store cx m s); try exact H; apply Rstore_eq; reflexivity.
Qed.

(* C16 for one step; the right disjunct is a model created by this Store, owned by the owner
   named in the signed proposal *)
Theorem step_history : forall cx s op k x, metas (fst (step cx s op)) !! k = Some x ->
  (exists a, metas s !! k = Some a /\ same_model a x) \/
  (exists m, op = OStore m /\ metas s !! k = None /\ k = st_data m /\ m_commits x = [] /\ m_owner x = st_owner m).
Proof.
  intros cx s op k x H. destruct op as [| | | | | | | |m| | | | | | | | | | | |].
  9: { destruct (step_history_store cx s m k x H) as [Ha|Hb]; [left; exact Ha|right; exists m; split; [reflexivity|exact Hb]]. }
  all: left; match type of H with metas (fst (step _ _ ?o)) !! _ = _ => apply (step_history_nostore cx s o I k x H) end.
Qed.
Print Assumptions step_history.

(** * runs *)
Fixpoint alive_along (d : string) (tr : list (Ctx * Op)) (s : State) : Prop :=
  match tr with
  | [] => True
  | (cx, op) :: tr' => is_Some (metas (fst (step cx s op)) !! d) /\ alive_along d tr' (fst (step cx s op))
  end.

(* C16 along a run: while the model exists its owner is fixed and its history is one chain *)
Theorem run_history : forall tr s d a x,
  metas s !! d = Some a -> alive_along d tr s -> metas (run tr s) !! d = Some x -> same_model a x.
Proof.
  induction tr as [|[cx op] tr IH]; intros s d a x Ha Hal Hx.
  - change (run [] s) with s in Hx. rewrite Ha in Hx. injection Hx as <-. reflexivity.
  - destruct Hal as [[y Hy] Hal]. change (run ((cx, op) :: tr) s) with (run tr (fst (step cx s op))) in Hx.
    destruct (step_history cx s op d y Hy) as [(a' & Ha' & Hs)|(m & _ & Hn & _)]; [|congruence].
    rewrite Ha in Ha'. injection Ha' as <-. etransitivity; [exact Hs|]. exact (IH _ d y x Hy Hal Hx).
Qed.
Print Assumptions run_history.

Corollary committed_prefix_stable : forall tr s d a x v rest,
  metas s !! d = Some a -> alive_along d tr s -> metas (run tr s) !! d = Some x ->
  m_commits a = rest ++ [v] -> rest `prefix_of` m_commits x.
Proof.
  intros tr s d a x v rest Ha Hal Hx Hc. destruct (run_history tr s d a x Ha Hal Hx) as [_ [_ Hp]].
  rewrite Hc in Hp. rewrite removelast_last in Hp. exact Hp.
Qed.

(** * an accepted update names (a substring of) the latest version, and no other update is in flight *)
(* [m_status] is MetaComplete exactly while no update of the model is in flight: an accepted update sets it
   to the operation code, completion and rollback set it back *)
Definition update_ok (b : State) (m : StoreMsg) : Prop :=
  forall em, metas b !! st_data m = Some em ->
    str_contains (m_commit em) (fst (split_commit (st_commit m))) = true /\ m_status em = MetaComplete.

Ltac u_step := store_step ltac:(apply ht_fail; intros; exact I).
Ltac u_km tac := eapply ht_bind; [apply (ht_km _ (fun _ => True) _ (fun _ _ => I)); tac|].

Lemma umsc_status cx oid o t : forall em,
  metas t !! o_data o = Some em ->
  match update_meta_status_commit cx oid o t with Ok _ _ => m_status em = MetaComplete | _ => True end.
Proof.
  intros em Em. unfold update_meta_status_commit. unfold bind at 1. unfold get. rewrite Em.
  destruct (m_status em =? MetaComplete) eqn:E; [apply Z.eqb_eq in E|exact I].
  cbn [negb]. cbv iota. match goal with |- match ?c with _ => _ end => destruct c end; auto.
Qed.

Theorem store_update_linear : forall cx s m s' d,
  step cx s (OStore m) = (s', OutTx COk d) -> update_ok s m.
Proof.
  intros cx s m s' d H. cbn [step tx_of] in H. apply deliver_ok in H.
  assert (Ht : ht (same_metas s) (sao_store cx m) (fun _ _ => update_ok s m) (fun _ => True)).
  { unfold sao_store. repeat u_step.
    u_km ltac:(kt); intros pay0. repeat u_step.
    u_km ltac:(kt); intros isp. u_km ltac:(destruct isp; kt); intros sps. repeat u_step.
    u_km ltac:(kt); intros payer. repeat u_step.
    u_km ltac:(kt); intros [].
    eapply ht_bind with (Qm := fun r t => same_metas s t /\ o_data (snd r) = st_data m).
    { intros t Ht.
      match goal with |- match new_order ?c ?o ?l t with _ => _ end => pose proof (mv_mt _ (mv_new_order c o l) t) as K end.
      match goal with |- match ?c with _ => _ end => destruct c as [[id o2] t'|e t'|e|] eqn:E end; auto.
      split; [unfold same_metas in *; congruence|]. apply new_order_data in E. exact E. }
    intros [oid o2]. cbn [snd].
    eapply ht_bind with (Qm := fun _ t => same_metas s t /\ o_data o2 = st_data m).
    { intros t [Ht Hd]. assert (K : keeps metas (if isp then set_timeout_block oid (u64 (o_created o2 + o_timeout o2)) else ret tt)) by (destruct isp; kt).
      specialize (K t). destruct (if isp then _ else _) eqn:E; auto. split; [unfold same_metas in *; congruence|exact Hd]. }
    intros []. apply ht_bind_get. intros s5 [Hs5 Hd]. apply (ht_pre _ _ _ (same_metas s)); [|intros t <-; exact Hs5].
    repeat u_step.
    - (* the model exists: the base test passed, and the status test is inside UpdateMetaStatusAndCommit *)
      lazymatch goal with Hb : negb (str_contains (m_commit ?x) _) = false, Hp : split_commit _ = _ |- _ =>
        rename x into em0, Hb into Hbase, Hp into Hsplit end.
      intros t Ht. pose proof (umsc_status cx oid o2 t em0) as K. rewrite Hd in K.
      assert (Em : metas t !! st_data m = Some em0) by (unfold same_metas in *; congruence). specialize (K Em).
      destruct (update_meta_status_commit cx oid o2 t); auto.
      intros em Hem. assert (em = em0) by (unfold same_metas in *; congruence). subst em.
      split; [|exact K]. rewrite Hsplit. cbn [fst]. apply negb_false_iff in Hbase. exact Hbase.
    - (* the model does not exist *)
      intros t Ht. destruct (new_meta _ _ _ _ t); auto. intros em Hem. unfold same_metas in *. congruence. }
  specialize (Ht s eq_refl). rewrite H in Ht. exact Ht.
Qed.
Print Assumptions store_update_linear.

(** ** non-vacuity and the limits of the statements *)

(* an update of the model of RefInt.W whose base is the single character "3" (finding D16), its completion,
   and a force-push on top of it *)
Definition upd1 : StoreMsg :=
  {| st_creator := "G"; st_provider := "G"; st_owner := "did:key:K1"; st_pprovider := "G"; st_group := "";
     st_duration := 3600; st_replica := 1; st_timeout := 100; st_alias := "a"; st_data := W.data;
     st_commit := "3|11111111-1111-1111-1111-111111111111";
     st_tags := []; st_cid := "cid"; st_rule := ""; st_ext := ""; st_size := 1000000; st_op := 1; st_ro := [];
     st_paydid := ""; st_sig := W.sig; st_cid_ok := true |}.
Definition upd2 : StoreMsg :=
  {| st_creator := "G"; st_provider := "G"; st_owner := "did:key:K1"; st_pprovider := "G"; st_group := "";
     st_duration := 3600; st_replica := 1; st_timeout := 100; st_alias := "a"; st_data := W.data;
     st_commit := "11111111-1111-1111-1111-111111111111|22222222-2222-2222-2222-222222222222";
     st_tags := []; st_cid := "cid"; st_rule := ""; st_ext := ""; st_size := 1000000; st_op := 2; st_ro := [];
     st_paydid := ""; st_sig := W.sig; st_cid_ok := true |}.
Definition hist_run : list (Ctx * Op) :=
  [ (W.cxh 7, OStore upd1); (W.cxh 8, OComplete "S" "S" 2 "cid" 1000000 true);
    (W.cxh 9, OStore upd2); (W.cxh 10, OComplete "S" "S" 3 "cid" 1000000 true) ].
Definition commits_of (s : State) : list string :=
  match metas s !! W.data with Some m => map commit_of_version (m_commits m) | None => [] end.

Lemma cons_eq_inv {X} (x y : X) l l' : x :: l = y :: l' -> x = y /\ l = l'.
Proof. intros H. injection H as -> ->. split; reflexivity. Qed.
Lemma commits_of_alive s x l : commits_of s = x :: l -> is_Some (metas s !! W.data).
Proof. unfold commits_of. destruct (metas s !! W.data); [eexists; reflexivity|discriminate]. Qed.

Example history_nonvacuous :
  (exists a, metas W.s2 !! W.data = Some a /\ map commit_of_version (m_commits a) = [W.data]) /\
  alive_along W.data hist_run W.s2 /\
  commits_of (run (firstn 2 hist_run) W.s2) = [W.data; "11111111-1111-1111-1111-111111111111"] /\
  commits_of (run hist_run W.s2) = [W.data; "22222222-2222-2222-2222-222222222222"].
Proof.
  unfold hist_run, run. cbn [alive_along firstn fold_left fst snd].
  set (s3 := fst (step (W.cxh 7) W.s2 _)). set (s4 := fst (step (W.cxh 8) s3 _)).
  set (s5 := fst (step (W.cxh 9) s4 _)). set (s6 := fst (step (W.cxh 10) s5 _)).
  (* all states of the run in one equation; [injection] on it would normalise the closed terms, so it is split by [cons_eq_inv] *)
  match goal with |- _ /\ _ /\ _ = ?l4 /\ _ = ?l6 =>
    assert (E : map commits_of [W.s2; s3; s4; s5; s6] = [[W.data]; [W.data]; l4; l4; l6]) by (vm_compute; reflexivity) end.
  clearbody s6 s5 s4 s3. cbn [map] in E. repeat (apply cons_eq_inv in E as [? E]).
  split; [unfold commits_of in *; destruct (metas W.s2 !! W.data) as [a|]; [exists a; split; [reflexivity|assumption]|discriminate]|].
  split; [repeat split; eapply commits_of_alive; eassumption|split; assumption].
Qed.

(* the stronger reading "the base IS the latest version" is false of the faithful model (finding D16):
   the first update above names the single character "3" as its base and is accepted *)
Theorem store_base_equality_refuted : exists cx s m s' d em,
  step cx s (OStore m) = (s', OutTx COk d) /\ metas s !! st_data m = Some em /\
  fst (split_commit (st_commit m)) <> m_commit em.
Proof.
  (* the state after the step stays a variable: its normal form is not built *)
  assert (E : snd (step (W.cxh 7) W.s2 (OStore upd1)) = OutTx COk "") by (vm_compute; reflexivity).
  destruct (step (W.cxh 7) W.s2 (OStore upd1)) as [s' o] eqn:Es. cbn [snd] in E. subst o.
  exists (W.cxh 7), W.s2, upd1, s', "". eexists. split; [exact Es|].
  split; [vm_compute; reflexivity|]. vm_compute. discriminate.
Qed.
