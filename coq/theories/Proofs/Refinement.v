(* What the sampled squares support. The correspondence check records, for every ABCI call it makes on the real
   application, the abstraction of the state before, the call, and the abstraction of the state after, and re-executes
   the call in the model FROM THE IMPLEMENTATION'S PRE-STATE. If every recorded square commutes, the abstraction of
   the implementation's final state is the model's run from the abstraction of its initial state -- so every state the
   implementation went through is a model-reachable state, which is what the invariants proved over [run] need. *)
From SaoVerif Require Import Base.Prelude Base.Ints Base.Dec Model.Did Model.Types Model.Monad Model.Bank Model.Select
     Model.Node Model.Storage Model.Sao Model.Hooks Model.App Model.Spec.

(* an implementation history as the harness records it: the abstracted post-state of every call *)
Definition recorded := list (Ctx * Op * State).

Fixpoint squares_commute (a0 : State) (h : recorded) : Prop :=
  match h with
  | [] => True
  | (cx, op, a1) :: h' => fst (step cx a0 op) = a1 /\ squares_commute a1 h'
  end.

Definition calls (h : recorded) : list (Ctx * Op) := map fst h.
Definition final (a0 : State) (h : recorded) : State := List.last (map snd h) a0.

Lemma last_nonempty_indep {A} (l : list A) y d d' : List.last (y :: l) d = List.last (y :: l) d'.
Proof. revert y. induction l as [|z l IH]; intros y; [reflexivity|]. cbn [List.last] in *. apply IH. Qed.

Theorem squares_give_run : forall h a0, squares_commute a0 h -> final a0 h = run (calls h) a0.
Proof.
  induction h as [|[[cx op] a1] h IH]; intros a0 Hc; [reflexivity|].
  destruct Hc as [E Hc]. unfold calls. cbn [map fst]. change (run ((cx, op) :: map fst h) a0) with (run (calls h) (fst (step cx a0 op))).
  rewrite E, <- (IH a1 Hc). unfold final. cbn [map snd]. destruct h as [|x h']; [reflexivity|].
  cbn [map]. change (List.last (a1 :: snd x :: map snd h') a0) with (List.last (snd x :: map snd h') a0).
  apply last_nonempty_indep.
Qed.

Corollary invariant_transfers (Inv : State -> Prop) :
  (forall tr s, Inv s -> Inv (run tr s)) ->
  forall h a0, Inv a0 -> squares_commute a0 h -> Forall (fun x => Inv (snd x)) h.
Proof.
  intros Hrun h. induction h as [|[[cx op] a1] h IH]; intros a0 Hi Hc; [constructor|].
  destruct Hc as [E Hc]. assert (Hi1 : Inv a1) by (rewrite <- E; apply (Hrun [(cx, op)] a0 Hi)).
  constructor; [exact Hi1|apply (IH a1 Hi1 Hc)].
Qed.
Print Assumptions invariant_transfers.
