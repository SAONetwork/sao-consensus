(* Proofs about the DID registry model (property C17): the invariant [Inv_did] holds
   initially and is preserved by every operation, and the per-operation statements. *)
From SaoVerif Require Import Base.Prelude Base.Ints Model.Did Model.DidSpec Proofs.Outcome.
From RecordUpdate Require Import RecordUpdate.
Import RecordSetNotations.

(** * Strings *)
Lemma sid_inj a b : "did:sid:" +:+ a = "did:sid:" +:+ b -> a = b.
Proof. intros H. cbv [String.append] in H. congruence. Qed.

Lemma is_sid_app x : is_sid ("did:sid:" +:+ x) = true.
Proof. reflexivity. Qed.

Lemma str_prefix_spec p s : str_prefix p s = true -> exists r, s = p +:+ r.
Proof.
  revert s. induction p as [|a p IH]; intros s H.
  - exists s. reflexivity.
  - destruct s as [|b s]; simpl in H; [discriminate|].
    destruct (Ascii.eqb a b) eqn:E; [|discriminate].
    apply Ascii.eqb_eq in E. subst b. destruct (IH _ H) as [r ->]. exists r. reflexivity.
Qed.

Lemma sid_not_key d : is_sid d = true -> is_keydid d = true -> False.
Proof.
  intros H1 H2. apply str_prefix_spec in H1. destruct H1 as [r ->]. discriminate H2.
Qed.

Lemma andb3_eq a b c x y z :
  String.eqb a x && String.eqb b y && String.eqb c z = true <-> a = x /\ b = y /\ c = z.
Proof. rewrite !andb_true_iff, !String.eqb_eq. tauto. Qed.

(** * Lists *)
Lemma in_update_list_In d (l : list (string * (string * string))) :
  in_update_list d l = true <-> In d (map fst l).
Proof.
  unfold in_update_list. rewrite existsb_exists, in_map_iff. split.
  - intros [e [He E]]. apply String.eqb_eq in E. exists e. auto.
  - intros [e [E He]]. exists e. split; [exact He|]. apply String.eqb_eq. exact E.
Qed.

Definition remove_all (R l : list string) : list string :=
  fold_left (fun l ad => remove_first ad l) R l.

Lemma remove_first_spec x l : NoDup l ->
  NoDup (remove_first x l) /\ forall a, In a (remove_first x l) <-> In a l /\ a <> x.
Proof.
  induction 1 as [|y l Hy ND [IH1 IH2]]; simpl; [split; [constructor|tauto]|].
  rewrite elem_of_list_In in Hy. destruct (String.eqb_spec x y) as [->|Hne].
  - split; [exact ND|]. intros a. split; [intros H; split; [auto|congruence]|].
    intros [[H|H] Hne]; congruence.
  - split; [apply NoDup_cons; rewrite elem_of_list_In, IH2; tauto|].
    intros a. simpl. rewrite IH2. intuition congruence.
Qed.

Lemma remove_all_spec R l : NoDup l ->
  NoDup (remove_all R l) /\ forall a, In a (remove_all R l) <-> In a l /\ ~ In a R.
Proof.
  unfold remove_all. revert l. induction R as [|x R IH]; simpl; intros l ND; [tauto|].
  destruct (remove_first_spec x l ND) as [ND1 H1]. destruct (IH _ ND1) as [ND2 H2].
  split; [exact ND2|]. intros a. rewrite H2, H1. intuition congruence.
Qed.

(* The counting argument: a duplicate-free list covered by a list of the same length is
   a permutation of it. *)
Lemma counting (accl RU : list string) :
  NoDup accl -> length accl = length RU -> (forall a, In a accl -> In a RU) ->
  NoDup RU /\ (forall a, In a RU <-> In a accl).
Proof.
  intros ND Hlen Hsub.
  assert (Hsm : accl ⊆+ RU).
  { apply NoDup_submseteq; [exact ND|]. intros x Hx.
    apply elem_of_list_In, Hsub, elem_of_list_In, Hx. }
  assert (Hp : accl ≡ₚ RU).
  { apply submseteq_Permutation_length_eq; [symmetry; exact Hlen|exact Hsm]. }
  split.
  - rewrite <- Hp. exact ND.
  - intros a. rewrite <- !elem_of_list_In. rewrite Hp. tauto.
Qed.

(** * Maps: deleting / inserting a list of keys *)
Definition del_keys {A} (l : list string) (m : gmap string A) : gmap string A :=
  fold_left (fun m k => delete k m) l m.
Definition ins_auths {A} (l : list (string * A)) (m : gmap string A) : gmap string A :=
  fold_left (fun m a => <[fst a := snd a]> m) l m.

Lemma del_keys_Some {A} l (m : gmap string A) k v :
  del_keys l m !! k = Some v <-> ~ In k l /\ m !! k = Some v.
Proof.
  unfold del_keys. revert m. induction l as [|x l IH]; simpl; intros m; [tauto|].
  rewrite IH, lookup_delete_Some. split.
  - intros [H1 [H2 H3]]. split; [|exact H3]. intros [H|H]; auto.
  - intros [H1 H2]. repeat split; auto.
Qed.

Lemma del_keys_is_Some {A} l (m : gmap string A) k :
  is_Some (del_keys l m !! k) <-> ~ In k l /\ is_Some (m !! k).
Proof. unfold is_Some. setoid_rewrite del_keys_Some. naive_solver. Qed.

Lemma ins_auths_is_Some {A} (l : list (string * A)) m k :
  is_Some (ins_auths l m !! k) <-> In k (map fst l) \/ is_Some (m !! k).
Proof.
  unfold ins_auths. revert m. induction l as [|x l IH]; simpl; intros m; [tauto|].
  rewrite IH, lookup_insert_is_Some.
  destruct (decide (fst x = k)) as [E|E]; tauto.
Qed.

(** * The folds over the state, as single-field updates *)
Lemma fold_del_did l s :
  fold_left (fun st aid => st <| d_did ::= delete aid |>) l s = s <| d_did ::= del_keys l |>.
Proof.
  revert s. induction l as [|x l IH]; intros s; simpl.
  - destruct s; reflexivity.
  - rewrite IH. destruct s; reflexivity.
Qed.

Lemma fold_del_accid l s :
  fold_left (fun st ad => st <| d_accid ::= delete ad |>) l s = s <| d_accid ::= del_keys l |>.
Proof.
  revert s. induction l as [|x l IH]; intros s; simpl.
  - destruct s; reflexivity.
  - rewrite IH. destruct s; reflexivity.
Qed.

Lemma fold_del_auth l s :
  fold_left (fun st ad => st <| d_auth ::= delete ad |>) l s = s <| d_auth ::= del_keys l |>.
Proof.
  revert s. induction l as [|x l IH]; intros s; simpl.
  - destruct s; reflexivity.
  - rewrite IH. destruct s; reflexivity.
Qed.

Lemma fold_ins_auth (l : list (string * (string * string))) s :
  fold_left (fun st a => st <| d_auth ::= <[fst a := snd a]> |>) l s = s <| d_auth ::= ins_auths l |>.
Proof.
  revert s. induction l as [|x l IH]; intros s; simpl.
  - destruct s; reflexivity.
  - rewrite IH. destruct s; reflexivity.
Qed.

(** * check_remove *)
Definition rm_ok (chain : string) (s : DidState) (pay a id : string) : Prop :=
  d_accid s !! a = Some id /\
  exists c, parse_account_id id = Some c /\
            ~ (c_network c = "cosmos" /\ c_chainid c = chain /\ c_address c = pay).

Lemma check_remove_spec chain s pay l ids :
  check_remove chain s pay l = inr ids -> Forall2 (rm_ok chain s pay) l ids.
Proof.
  revert ids. induction l as [|a l IH]; intros ids H; cbn [check_remove] in H.
  - injection H as <-. constructor.
  - destruct (d_accid s !! a) as [aid|] eqn:E1; [|discriminate].
    destruct (parse_account_id aid) as [c|] eqn:E2; [|discriminate].
    destruct (String.eqb (c_network c) "cosmos" && String.eqb (c_chainid c) chain
              && String.eqb (c_address c) pay) eqn:E3; [discriminate|].
    destruct (check_remove chain s pay l) as [e|ids'] eqn:E4; [discriminate|].
    injection H as <-. constructor; [|apply IH; reflexivity].
    split; [exact E1|]. exists c. split; [exact E2|].
    intros H3. apply andb3_eq in H3. congruence.
Qed.

Lemma Forall2_In_l {A B} (P : A -> B -> Prop) l k a :
  Forall2 P l k -> In a l -> exists b, In b k /\ P a b.
Proof.
  induction 1 as [|x y l k Hxy HF IH]; simpl; [tauto|].
  intros [<-|H]; [exists y; auto|]. destruct (IH H) as [b [Hb Pb]]. exists b. auto.
Qed.

Lemma Forall2_In_r {A B} (P : A -> B -> Prop) l k b :
  Forall2 P l k -> In b k -> exists a, In a l /\ P a b.
Proof. intros HF. apply Forall2_flip in HF. exact (Forall2_In_l _ _ _ _ HF). Qed.

Lemma creator_bound_true chain s creator did :
  creator_bound chain s creator did = true <-> d_did s !! cosmos_id chain creator = Some did.
Proof.
  unfold creator_bound, cosmos_id.
  destruct (d_did s !! ("cosmos:" +:+ chain +:+ ":" +:+ creator)) as [d|].
  - rewrite String.eqb_eq. split; congruence.
  - split; discriminate.
Qed.

(** * What an accepted Update checked and did *)
Record UpdateOk (chain : string) (m : UpdateMsg) (s s' : DidState)
    (accl : list string) (pay : string) (rm_ids : list string) (meth pid : string) : Prop := {
  U_creator : d_did s !! cosmos_id chain (u_creator m) = Some (u_did m);
  U_accl : d_acclist s !! u_did m = Some accl;
  U_len : length accl = (length (u_remove m) + length (u_update m))%nat;
  U_cover : forall a, In a accl -> In a (u_remove m) \/ In a (map fst (u_update m));
  U_pay : d_pay s !! u_did m = Some pay;
  U_check : Forall2 (rm_ok chain s pay) (u_remove m) rm_ids;
  U_parse : u_parse m = Some (meth, pid);
  U_newver : ~ In (u_newdoc m) (default [] (d_ver s !! pid));
  U_newdoc : d_doc s !! u_newdoc m = None;
  U_auth' : d_auth s' = del_keys (u_remove m) (ins_auths (u_update m) (d_auth s));
  U_accid' : d_accid s' = del_keys (u_remove m) (d_accid s);
  U_acclist' : d_acclist s' = <[u_did m := remove_all (u_remove m) accl]> (d_acclist s);
  U_did' : d_did s' = del_keys rm_ids (d_did s);
  U_bal' : d_bal s' = d_bal s;
  U_kid' : d_kid s' = d_kid s;
  U_seeds' : d_seeds s' = <[u_did m := default [] (d_seeds s !! u_did m) ++ [u_seed m]]> (d_seeds s);
  U_pay' : d_pay s' = d_pay s;
  U_doc' : d_doc s' = <[u_newdoc m := u_keys m]> (d_doc s);
  U_ver' : d_ver s' = <[match d_ver s !! pid with Some _ => pid | None => "" end
                        := default [] (d_ver s !! pid) ++ [u_newdoc m]]> (d_ver s);
}.

Lemma did_update_inv chain now m s s' :
  did_update chain now m s = inr s' ->
  exists accl pay rm_ids meth pid, UpdateOk chain m s s' accl pay rm_ids meth pid.
Proof.
  unfold did_update. cbv zeta. intros H.
  destruct (creator_bound chain s (u_creator m) (u_did m)) eqn:Ecb; cbn [negb] in H; [|discriminate].
  destruct (u64 (u_ts m + EXPIRE_DURATION) <? u64 now) eqn:Ets; [discriminate|].
  destruct (Nat.eqb (length (u_remove m)) 0) eqn:Er0; [discriminate|].
  destruct (Nat.eqb (length (u_update m)) 0) eqn:Eu0; [discriminate|].
  destruct (d_acclist s !! u_did m) as [accl|] eqn:Eaccl; [|discriminate].
  destruct (Nat.eqb (length accl) (length (u_remove m) + length (u_update m))) eqn:Elen;
    cbn [negb] in H; [|discriminate].
  destruct (forallb (fun a => in_list a (u_remove m) || in_update_list a (u_update m)) accl) eqn:Ecov;
    cbn [negb] in H; [|discriminate].
  destruct (match d_seeds s !! u_did m with Some l => in_list (u_seed m) l | None => false end)
    eqn:Eseed; [discriminate|].
  destruct (d_pay s !! u_did m) as [pay|] eqn:Epay; [|discriminate].
  destruct (check_remove chain s pay (u_remove m)) as [e|rm_ids] eqn:Echk; [discriminate|].
  destruct (u_parse m) as [[meth pid]|] eqn:Eparse; [|discriminate].
  destruct (in_list (u_newdoc m) (default [] (d_ver s !! pid))) eqn:Ever; [discriminate|].
  destruct (bool_decide (is_Some (d_doc s !! u_newdoc m))) eqn:Edoc; [discriminate|].
  destruct (u_calc m) as [cal|] eqn:Ecalc; [|discriminate].
  destruct (String.eqb (u_newdoc m) cal) eqn:Ecal; cbn [negb] in H; [|discriminate].
  injection H as <-.
  rewrite fold_del_did, fold_del_accid, fold_ins_auth, fold_del_auth.
  exists accl, pay, rm_ids, meth, pid. constructor; try reflexivity; try assumption.
  - apply creator_bound_true, Ecb.
  - apply Nat.eqb_eq, Elen.
  - intros a Ha. rewrite forallb_forall in Ecov. specialize (Ecov a Ha).
    apply orb_true_iff in Ecov. rewrite in_list_In, in_update_list_In in Ecov. exact Ecov.
  - apply check_remove_spec, Echk.
  - rewrite <- elem_of_list_In. apply in_list_false, Ever.
  - apply bool_decide_eq_false in Edoc. apply eq_None_not_Some. exact Edoc.
  - cbn. destruct (d_seeds s !! u_did m); reflexivity.
Qed.

(** * What an accepted Binding checked and did *)
Record BindOk (chain : string) (m : BindingMsg) (s s' : DidState) (c : Caip10) : Prop := {
  B_did : b_pdid m = "did:sid:" +:+ b_root m;
  B_parse : parse_account_id (b_accid m) = Some c;
  B_notin : ~ In (b_accdid m) (default [] (d_acclist s !! b_pdid m));
  B_noauth : d_auth s !! b_accdid m = None;
  B_stored : d_accid s !! b_accdid m = None \/ d_accid s !! b_accdid m = Some (b_accid m);
  B_unbound : d_did s !! b_accid m = None;
  B_proof : proof_ok chain c m = true;
  B_auth' : d_auth s' = <[b_accdid m := b_auth m]> (d_auth s);
  B_accid' : d_accid s' = <[b_accdid m := b_accid m]> (d_accid s);
  B_acclist' : d_acclist s' =
     <[b_pdid m := default [] (d_acclist s !! b_pdid m) ++ [b_accdid m]]> (d_acclist s);
  B_did' : d_did s' = <[b_accid m := b_pdid m]> (d_did s);
  B_bal' : d_bal s' = d_bal s;
  B_kid' : d_kid s' = d_kid s;
  B_seeds' : d_seeds s' = d_seeds s;
  B_docver :
    (is_Some (d_ver s !! b_root m) /\
     d_did s !! cosmos_id chain (b_creator m) = Some (b_pdid m) /\
     d_doc s' = d_doc s /\ d_ver s' = d_ver s /\ d_pay s' = d_pay s)
    \/
    (d_ver s !! b_root m = None /\ b_calc m = Some (b_root m) /\ d_doc s !! b_root m = None /\
     d_doc s' = <[b_root m := b_keys m]> (d_doc s) /\
     d_ver s' = <[b_root m := [b_root m]]> (d_ver s) /\
     (d_pay s' = d_pay s \/
      (d_pay s !! b_pdid m = None /\ c_network c = "cosmos" /\ c_chainid c = chain /\
       d_pay s' = <[b_pdid m := c_address c]> (d_pay s))));
}.

Lemma did_binding_inv chain now m s s' :
  did_binding chain now m s = inr s' -> exists c, BindOk chain m s s' c.
Proof.
  unfold did_binding. cbv zeta. intros H.
  destruct (String.eqb ("did:sid:" +:+ b_root m) (b_pdid m)) eqn:Edid; cbn [negb] in H; [|discriminate].
  apply String.eqb_eq in Edid.
  destruct (u64 (b_pts m + EXPIRE_DURATION) <? u64 now); [discriminate|].
  destruct (parse_account_id (b_accid m)) as [c|] eqn:Eparse; [|discriminate].
  destruct (match d_acclist s !! b_pdid m with Some l => in_list (b_accdid m) l | None => false end)
    eqn:Ein; [discriminate|].
  destruct (bool_decide (is_Some (d_auth s !! b_accdid m))) eqn:Eauth; [discriminate|].
  destruct (match d_accid s !! b_accdid m with
            | Some a => negb (String.eqb a (b_accid m)) | None => false end) eqn:Est; [discriminate|].
  destruct (bool_decide (is_Some (d_did s !! b_accid m))) eqn:Ebound; [discriminate|].
  destruct (proof_ok chain c m) eqn:Eproof; cbn [negb] in H; [|discriminate].
  apply bool_decide_eq_false, eq_None_not_Some in Eauth, Ebound.
  destruct (match d_ver s !! b_root m with Some _ => _ | None => _ end) as [e|s2] eqn:Edoc;
    [discriminate|].
  injection H as <-. exists c.
  (* [s2] is the state after the document step: it differs from [s] in d_doc, d_ver, d_pay only
     (the equation), and there as [B_docver] says *)
  assert (Hdoc :
    s2 = s <| d_doc := d_doc s2 |> <| d_ver := d_ver s2 |> <| d_pay := d_pay s2 |> /\
    ((is_Some (d_ver s !! b_root m) /\
      d_did s !! cosmos_id chain (b_creator m) = Some (b_pdid m) /\
      d_doc s2 = d_doc s /\ d_ver s2 = d_ver s /\ d_pay s2 = d_pay s)
     \/
     (d_ver s !! b_root m = None /\ b_calc m = Some (b_root m) /\ d_doc s !! b_root m = None /\
      d_doc s2 = <[b_root m := b_keys m]> (d_doc s) /\
      d_ver s2 = <[b_root m := [b_root m]]> (d_ver s) /\
      (d_pay s2 = d_pay s \/
       (d_pay s !! b_pdid m = None /\ c_network c = "cosmos" /\ c_chainid c = chain /\
        d_pay s2 = <[b_pdid m := c_address c]> (d_pay s)))))).
  { destruct (d_ver s !! b_root m) as [vl|].
    - destruct (creator_bound chain s (b_creator m) (b_pdid m)) eqn:Ecb; [|discriminate].
      apply creator_bound_true in Ecb. injection Edoc as <-. split; [destruct s; reflexivity|]. left. eauto.
    - destruct (b_calc m) as [newdoc|]; [|discriminate].
      destruct (String.eqb newdoc (b_root m)) eqn:Enew; cbn [negb orb] in Edoc; [|discriminate].
      apply String.eqb_eq in Enew. subst newdoc.
      destruct (negb _); [discriminate|].
      destruct (bool_decide (is_Some (d_doc s !! b_root m))) eqn:Edc; [discriminate|].
      apply bool_decide_eq_false, eq_None_not_Some in Edc. cbn [d_pay set] in Edoc.
      destruct (String.eqb (c_network c) "cosmos" && String.eqb (c_chainid c) chain) eqn:Ecos;
        [destruct (d_pay s !! b_pdid m) eqn:Epay|];
        injection Edoc as <-; (split; [reflexivity|]); right; repeat split; auto.
      apply andb_true_iff in Ecos. rewrite !String.eqb_eq in Ecos. right. tauto. }
  destruct Hdoc as [Hfr Hdoc]. rewrite Hfr.
  constructor; try assumption; try (destruct (d_accid s !! b_accdid m); done).
  - destruct (d_acclist s !! b_pdid m); [rewrite <- elem_of_list_In; apply in_list_false, Ein|intros []].
  - destruct (d_accid s !! b_accdid m) as [a|]; [|left; reflexivity].
    right. apply negb_false_iff, String.eqb_eq in Est. congruence.
  - destruct (d_accid s !! b_accdid m) as [a|] eqn:Ea; [|reflexivity].
    apply negb_false_iff, String.eqb_eq in Est. subst a. symmetry. apply insert_id, Ea.
  - destruct (d_accid s !! b_accdid m), (d_acclist s !! b_pdid m); reflexivity.
Qed.

(** * What an accepted UpdatePaymentAddress checked and did *)
Record PayOk (chain : string) (m : PayMsg) (s s' : DidState) (meth pid : string) (c : Caip10)
  : Prop := {
  P_parse : p_parse m = Some (meth, pid);
  P_acc : parse_account_id (p_accid m) = Some c;
  P_net : c_network c = "cosmos";
  P_chain : c_chainid c = chain;
  P_pay' : d_pay s' = <[p_did m := c_address c]> (d_pay s);
  P_case :
    (meth = "sid" /\ d_did s !! p_accid m = Some (p_did m) /\ d_kid s' = d_kid s)
    \/
    (meth = "key" /\ d_pay s !! p_did m = None /\ c_address c = p_creator m /\
     d_kid s !! c_address c = None /\ d_kid s' = <[c_address c := p_did m]> (d_kid s));
  P_auth' : d_auth s' = d_auth s;
  P_accid' : d_accid s' = d_accid s;
  P_acclist' : d_acclist s' = d_acclist s;
  P_did' : d_did s' = d_did s;
  P_bal' : d_bal s' = d_bal s;
  P_seeds' : d_seeds s' = d_seeds s;
  P_doc' : d_doc s' = d_doc s;
  P_ver' : d_ver s' = d_ver s;
}.

Lemma did_update_pay_inv chain m s s' :
  did_update_pay chain m s = inr s' -> exists meth pid c, PayOk chain m s s' meth pid c.
Proof.
  unfold did_update_pay. intros H.
  destruct (p_parse m) as [[meth pid]|] eqn:Eparse; [|discriminate].
  destruct (parse_account_id (p_accid m)) as [c|] eqn:Eacc; [|discriminate].
  cbv zeta in H.
  destruct (match d_pay s !! p_did m with Some _ => String.eqb meth "key" | None => false end)
    eqn:E1; [discriminate|].
  destruct (match d_pay s !! p_did m with Some a => String.eqb a (c_address c) | None => false end)
    eqn:E2; [discriminate|].
  destruct (negb (creator_bound chain s (p_creator m) (p_did m)) && negb (String.eqb meth "key"))
    eqn:E3; [discriminate|].
  destruct (String.eqb (c_network c) "cosmos" && String.eqb (c_chainid c) chain) eqn:Ecos;
    [|discriminate].
  apply andb_true_iff in Ecos. rewrite !String.eqb_eq in Ecos. destruct Ecos as [Enet Ech].
  exists meth, pid, c.
  destruct (String.eqb meth "sid") eqn:Esid.
  - destruct (d_did s !! p_accid m) as [stored|] eqn:Est; [|discriminate].
    destruct (String.eqb (p_did m) stored) eqn:Eeq; cbn [negb] in H; [|discriminate].
    apply String.eqb_eq in Eeq. subst stored. apply String.eqb_eq in Esid.
    injection H as <-. constructor; try assumption; try reflexivity.
    left. repeat split; assumption.
  - destruct (String.eqb meth "key") eqn:Ekey; [|discriminate].
    destruct (String.eqb (c_address c) (p_creator m)) eqn:Ecr; cbn [negb] in H; [|discriminate].
    destruct (bool_decide (is_Some (d_kid s !! c_address c))) eqn:Ekid; [discriminate|].
    apply String.eqb_eq in Ekey, Ecr.
    injection H as <-. constructor; try assumption; try reflexivity.
    right. repeat split; try assumption.
    + destruct (d_pay s !! p_did m); [discriminate E1|reflexivity].
    + apply bool_decide_eq_false in Ekid. apply eq_None_not_Some. exact Ekid.
Qed.

Lemma NoDup_snoc (l : list string) x : NoDup l -> ~ In x l -> NoDup (l ++ [x]).
Proof.
  intros ND Hx. apply NoDup_app. split; [exact ND|]. split.
  - intros y Hy Hy'. apply elem_of_list_singleton in Hy'. subst y.
    apply Hx, elem_of_list_In, Hy.
  - apply NoDup_singleton.
Qed.

(** * The initial state *)
Theorem did_empty_inv chain : Inv_did chain did_empty.
Proof.
  constructor; cbn; intros; try (rewrite lookup_empty in *; discriminate).
  split; intros [x Hx]; rewrite lookup_empty in Hx; discriminate.
Qed.
Print Assumptions did_empty_inv.

(** * Update preserves the invariant *)
Section UpdateFacts.
Context (chain : string) (m : UpdateMsg) (s s' : DidState)
        (accl : list string) (pay : string) (rm_ids : list string) (meth pid : string).
Hypothesis Hinv : Inv_did chain s.
Hypothesis HU : UpdateOk chain m s s' accl pay rm_ids meth pid.

Lemma upd_nodup_accl : NoDup accl.
Proof. eapply I_list_nodup; [exact Hinv|exact (U_accl _ _ _ _ _ _ _ _ _ HU)]. Qed.

Lemma upd_counting :
  NoDup (u_remove m ++ map fst (u_update m)) /\
  (forall a, In a (u_remove m ++ map fst (u_update m)) <-> In a accl).
Proof.
  apply counting.
  - exact upd_nodup_accl.
  - rewrite app_length, map_length. exact (U_len _ _ _ _ _ _ _ _ _ HU).
  - intros a Ha. apply in_or_app. exact (U_cover _ _ _ _ _ _ _ _ _ HU a Ha).
Qed.

Lemma upd_accl_bound a :
  In a accl -> exists id, d_accid s !! a = Some id /\ d_did s !! id = Some (u_did m).
Proof.
  intros H. eapply I_list_sound; [exact Hinv| |exact H]. exact (U_accl _ _ _ _ _ _ _ _ _ HU).
Qed.

Lemma upd_rm_iff a id : d_accid s !! a = Some id -> (In a (u_remove m) <-> In id rm_ids).
Proof.
  intros Ha. pose proof (U_check _ _ _ _ _ _ _ _ _ HU) as HF. split; intros H.
  - destruct (Forall2_In_l _ _ _ _ HF H) as [id' [Hid' [Hacc _]]]. congruence.
  - destruct (Forall2_In_r _ _ _ _ HF H) as [a' [Ha' [Hacc _]]].
    rewrite (I_accid_inj _ _ Hinv a a' id Ha Hacc). exact Ha'.
Qed.

Lemma upd_R_did a id : In a (u_remove m) -> d_accid s !! a = Some id -> d_did s !! id = Some (u_did m).
Proof.
  intros HR Ha. destruct (upd_accl_bound a) as [id' [Ha' Hd]]; [|congruence].
  apply upd_counting, in_or_app. left. exact HR.
Qed.

Lemma upd_accid'_Some a id :
  d_accid s' !! a = Some id <-> ~ In a (u_remove m) /\ d_accid s !! a = Some id.
Proof. rewrite (U_accid' _ _ _ _ _ _ _ _ _ HU). apply del_keys_Some. Qed.

Lemma upd_did'_Some id d :
  d_did s' !! id = Some d <-> ~ In id rm_ids /\ d_did s !! id = Some d.
Proof. rewrite (U_did' _ _ _ _ _ _ _ _ _ HU). apply del_keys_Some. Qed.

Lemma upd_keep a id d :
  d_accid s !! a = Some id -> d_did s !! id = Some d -> ~ In a (u_remove m) ->
  d_accid s' !! a = Some id /\ d_did s' !! id = Some d.
Proof.
  intros Ha Hd HnR. rewrite upd_accid'_Some, upd_did'_Some, <- (upd_rm_iff a id Ha). auto.
Qed.

Hypothesis Hsane : forall meth id, u_parse m = Some (meth, id) -> is_sid (u_did m) = true ->
                                   u_did m = "did:sid:" +:+ id.

Lemma upd_did_pid : u_did m = "did:sid:" +:+ pid /\ exists versions, d_ver s !! pid = Some versions.
Proof.
  destruct (I_bound_ver _ _ Hinv _ _ (U_creator _ _ _ _ _ _ _ _ _ HU)) as [r [Hr [vs Hvs]]].
  assert (Hp : u_did m = "did:sid:" +:+ pid).
  { apply (Hsane meth pid (U_parse _ _ _ _ _ _ _ _ _ HU)). rewrite Hr. apply is_sid_app. }
  split; [exact Hp|]. exists vs. rewrite Hp in Hr. apply sid_inj in Hr. subst r. exact Hvs.
Qed.

Lemma update_preserves : Inv_did chain s'.
Proof.
  destruct upd_did_pid as [Hdid [versions Hver]].
  pose proof upd_nodup_accl as HND.
  refine (let '{| U_accl := Eaccl; U_pay := Epay; U_check := Hcheck; U_newver := Hnewver;
                   U_auth' := Eauth'; U_accid' := Eaccid'; U_acclist' := Eacclist'; U_kid' := Ekid';
                   U_seeds' := Eseeds'; U_pay' := Epay'; U_doc' := Edoc'; U_ver' := Ever' |} := HU in _).
  destruct Hinv.
  rewrite Hver in Ever', Hnewver. cbn [default from_option id] in Ever', Hnewver.
  constructor; rewrite ?Ekid', ?Epay', ?Eacclist', ?Ever', ?Edoc', ?Eseeds'; try assumption.
  - (* I_list_sound *)
    intros d l a [[<- <-]|[Hne Hl]]%lookup_insert_Some Ha.
    + apply (remove_all_spec _ _ HND) in Ha as [Ha HnR].
      destruct (upd_accl_bound a Ha) as (id & Hacc & Hd). exists id. apply upd_keep; assumption.
    + destruct (I_list_sound d l a Hl Ha) as (id & Hacc & Hd). exists id.
      apply upd_keep; try assumption. intros HR. pose proof (upd_R_did a id HR Hacc). congruence.
  - (* I_list_complete *)
    intros a id d [HnR Ha]%upd_accid'_Some [_ Hd]%upd_did'_Some.
    destruct (I_list_complete a id d Ha Hd) as (l & Hl & Hin).
    destruct (decide (u_did m = d)) as [<-|E].
    + rewrite Eaccl in Hl. injection Hl as <-. eexists. split; [apply lookup_insert|].
      apply remove_all_spec; auto.
    + exists l. rewrite lookup_insert_ne; auto.
  - (* I_list_nodup *)
    apply map_Forall_insert_2; [apply remove_all_spec, HND|exact I_list_nodup].
  - (* I_did_has_acc *)
    intros id d [Hnrm Hd]%upd_did'_Some. destruct (I_did_has_acc id d Hd) as [a Ha]. exists a.
    apply upd_accid'_Some. split; [|exact Ha]. contradict Hnrm. apply (upd_rm_iff a id Ha), Hnrm.
  - (* I_accid_inj *)
    intros a a' id [_ Ha]%upd_accid'_Some [_ Ha']%upd_accid'_Some. exact (I_accid_inj a a' id Ha Ha').
  - (* I_accid_bound *)
    intros a id [HnR Ha]%upd_accid'_Some. destruct (I_accid_bound a id Ha) as [d Hd]. exists d.
    apply (upd_keep a id d Ha Hd HnR).
  - (* I_auth_dom *)
    intros a. rewrite Eauth', Eaccid', !del_keys_is_Some, ins_auths_is_Some, (I_auth_dom a).
    split; [intros [HnR [HUp|H]]|tauto]; [|auto]. split; [exact HnR|].
    destruct (upd_accl_bound a) as (id & Hacc & _); [|eauto].
    apply upd_counting, in_or_app. right. exact HUp.
  - (* I_bound_sid *)
    intros id d [_ Hd]%upd_did'_Some. exact (I_bound_sid id d Hd).
  - (* I_pay_sid: the account that holds the payment address is not on the remove list *)
    intros d p Hsid Hp.
    destruct (I_pay_sid d p Hsid Hp) as (id & c & Hd & Hparse & Hc).
    exists id, c. split; [|auto]. apply upd_did'_Some. split; [|exact Hd]. intros Hin.
    destruct (Forall2_In_r _ _ _ _ Hcheck Hin) as (a & HR & Hacc & c' & Hparse' & Hnot).
    pose proof (upd_R_did a id HR Hacc) as Hd'. assert (d = u_did m) as -> by congruence.
    apply Hnot. assert (c' = c) as -> by congruence. assert (pay = p) as -> by congruence. exact Hc.
  - (* I_ver_root *)
    apply map_Forall_insert_2; [|exact I_ver_root].
    destruct (I_ver_root pid versions Hver) as [tl ->]. exists (tl ++ [u_newdoc m]). reflexivity.
  - (* I_ver_nodup *)
    apply map_Forall_insert_2; [|exact I_ver_nodup].
    apply NoDup_snoc; [exact (I_ver_nodup pid versions Hver)|exact Hnewver].
  - (* I_ver_doc *)
    intros r l v [[<- <-]|[_ Hl]]%lookup_insert_Some Hv; apply lookup_insert_is_Some'; [|eauto].
    apply in_app_or in Hv as [Hv|[Hv|[]]]; eauto.
  - (* I_ver_seeds *)
    intros r l [[<- <-]|[Hne Hl]]%lookup_insert_Some.
    + rewrite <- Hdid, lookup_insert. cbn [default from_option id]. rewrite !app_length. cbn [length].
      pose proof (I_ver_seeds pid versions Hver) as Hs. rewrite <- Hdid in Hs. lia.
    + rewrite lookup_insert_ne; [exact (I_ver_seeds r l Hl)|].
      rewrite Hdid. intros E%sid_inj. congruence.
  - (* I_seeds_ver *)
    setoid_rewrite lookup_insert_is_Some'.
    intros d sd [[<- _]|[_ (r & Hr & Hv)%I_seeds_ver]]%lookup_insert_Some; eauto.
  - (* I_bound_ver *)
    setoid_rewrite lookup_insert_is_Some'.
    intros id d [_ (r & Hr & Hv)%I_bound_ver]%upd_did'_Some. eauto.
Qed.
End UpdateFacts.

(** * Binding preserves the invariant *)
Section BindingFacts.
Context (chain : string) (m : BindingMsg) (s s' : DidState) (c : Caip10).
Hypothesis HB : BindOk chain m s s' c.

Lemma bind_docver_grows : d_doc s ⊆ d_doc s' /\ d_ver s ⊆ d_ver s' /\ d_pay s ⊆ d_pay s'.
Proof.
  destruct (B_docver _ _ _ _ _ HB) as [(_ & _ & -> & -> & ->)|(Hv & _ & Hd & -> & -> & Hp)]; [done|].
  split; [apply insert_subseteq, Hd|]. split; [apply insert_subseteq, Hv|].
  destruct Hp as [->|(Hn & _ & _ & ->)]; [done|apply insert_subseteq, Hn].
Qed.

Lemma bind_pay' d p :
  d_pay s' !! d = Some p ->
  d_pay s !! d = Some p \/
  (d = b_pdid m /\ p = c_address c /\ c_network c = "cosmos" /\ c_chainid c = chain).
Proof.
  intros H. destruct (B_docver _ _ _ _ _ HB) as [(_ & _ & _ & _ & E)|(_ & _ & _ & _ & _ & [E|E])].
  - rewrite E in H. auto.
  - rewrite E in H. auto.
  - destruct E as (Hnone & Hnet & Hch & E). rewrite E in H.
    apply lookup_insert_Some in H as [[<- <-]|[_ H]]; auto.
Qed.

Lemma bind_ver' r l :
  d_ver s' !! r = Some l ->
  d_ver s !! r = Some l \/
  (r = b_root m /\ l = [b_root m] /\ d_ver s !! b_root m = None /\
   d_doc s' = <[b_root m := b_keys m]> (d_doc s)).
Proof.
  intros H. destruct (B_docver _ _ _ _ _ HB) as [(_ & _ & _ & E & _)|(Hn & _ & _ & Ed & E & _)].
  - rewrite E in H. auto.
  - rewrite E in H. apply lookup_insert_Some in H as [[<- <-]|[_ H]]; auto.
Qed.

Lemma bind_root_ver : is_Some (d_ver s' !! b_root m).
Proof.
  destruct (B_docver _ _ _ _ _ HB) as [(H & _ & _ & E & _)|(Hn & _ & _ & Ed & E & _)].
  - rewrite E. exact H.
  - rewrite E, lookup_insert. eauto.
Qed.

Hypothesis Hinv : Inv_did chain s.

Lemma bind_noaccid : d_accid s !! b_accdid m = None.
Proof.
  apply eq_None_not_Some. rewrite <- (I_auth_dom _ _ Hinv), (B_noauth _ _ _ _ _ HB).
  apply is_Some_None.
Qed.

Lemma binding_preserves : Inv_did chain s'.
Proof.
  pose proof bind_noaccid as Hnoacc. pose proof bind_docver_grows as (Hdoc & Hver & Hpay).
  pose proof bind_root_ver as Hroot.
  refine (let '{| B_did := Hdid; B_parse := Hparse; B_notin := Hnotin; B_unbound := Hunbound;
                   B_auth' := Eauth'; B_accid' := Eaccid'; B_acclist' := Eacclist'; B_did' := Edid';
                   B_kid' := Ekid'; B_seeds' := Eseeds' |} := HB in _).
  destruct Hinv.
  assert (Hfresh : forall a, d_accid s !! a <> Some (b_accid m)).
  { intros a [d Hd]%I_accid_bound. congruence. }
  pose proof (insert_subseteq _ _ (b_accid m) Hnoacc) as Haccids.
  pose proof (insert_subseteq _ _ (b_pdid m) Hunbound) as Hdids.
  assert (Hsid : is_sid (b_pdid m) = true) by (rewrite Hdid; apply is_sid_app).
  constructor; rewrite ?Eauth', ?Eaccid', ?Eacclist', ?Edid', ?Ekid', ?Eseeds'.
  - (* I_list_sound *)
    intros d l a [[<- <-]|[_ Hl]]%lookup_insert_Some Ha.
    + apply in_app_or in Ha as [Ha|[<-|[]]].
      * destruct (d_acclist s !! b_pdid m) as [l|] eqn:El; [|destruct Ha].
        destruct (I_list_sound _ _ _ El Ha) as (id & ? & ?). eauto using lookup_weaken.
      * exists (b_accid m). rewrite !lookup_insert. auto.
    + destruct (I_list_sound _ _ _ Hl Ha) as (id & ? & ?). eauto using lookup_weaken.
  - (* I_list_complete *)
    intros a id d [[<- <-]|[_ Ha]]%lookup_insert_Some Hd.
    + rewrite lookup_insert in Hd. injection Hd as <-.
      eexists. split; [apply lookup_insert|]. apply in_or_app. right. left. reflexivity.
    + apply lookup_insert_Some in Hd as [[<- _]|[_ Hd]]; [destruct (Hfresh a Ha)|].
      destruct (I_list_complete a id d Ha Hd) as (l & Hl & Hin).
      destruct (decide (b_pdid m = d)) as [<-|E].
      * rewrite Hl. eexists. split; [apply lookup_insert|]. apply in_or_app. left. exact Hin.
      * exists l. rewrite lookup_insert_ne; auto.
  - (* I_list_nodup *)
    apply map_Forall_insert_2; [|exact I_list_nodup]. apply NoDup_snoc; [|exact Hnotin].
    destruct (d_acclist s !! b_pdid m) as [l|] eqn:El; [exact (I_list_nodup _ _ El)|apply NoDup_nil_2].
  - (* I_did_has_acc *)
    intros id d [[<- <-]|[_ Hd]]%lookup_insert_Some.
    + exists (b_accdid m). apply lookup_insert.
    + destruct (I_did_has_acc id d Hd) as [a Ha]. eauto using lookup_weaken.
  - (* I_accid_inj *)
    intros a a' id [[<- <-]|[_ Ha]]%lookup_insert_Some [[<- E]|[_ Ha']]%lookup_insert_Some.
    + reflexivity.
    + destruct (Hfresh a' Ha').
    + subst id. destruct (Hfresh a Ha).
    + exact (I_accid_inj a a' id Ha Ha').
  - (* I_accid_bound *)
    intros a id [[<- <-]|[_ Ha]]%lookup_insert_Some.
    + exists (b_pdid m). apply lookup_insert.
    + destruct (I_accid_bound a id Ha) as [d Hd]. eauto using lookup_weaken.
  - (* I_auth_dom *)
    intros a. rewrite !lookup_insert_is_Some', (I_auth_dom a). tauto.
  - (* I_bound_sid *)
    apply map_Forall_insert_2; assumption.
  - (* I_pay_sid *)
    intros d p Hd [Hp|(-> & -> & Hnet & Hch)]%bind_pay'.
    + destruct (I_pay_sid d p Hd Hp) as (id & c0 & Hid & H). eauto using lookup_weaken.
    + exists (b_accid m), c. rewrite lookup_insert. auto.
  - (* I_kid_pay *)
    intros a d [Hp Hkey]%I_kid_pay. eauto using lookup_weaken.
  - (* I_pay_key *)
    intros d p Hkey [Hp|(-> & _)]%bind_pay'; [exact (I_pay_key d p Hkey Hp)|].
    destruct (sid_not_key (b_pdid m) Hsid Hkey).
  - (* I_pay_kind *)
    intros d p [Hp|(-> & _)]%bind_pay'; [exact (I_pay_kind d p Hp)|auto].
  - (* I_ver_root *)
    intros r l [Hl|(-> & -> & _)]%bind_ver'; [exact (I_ver_root r l Hl)|]. exists []. reflexivity.
  - (* I_ver_nodup *)
    intros r l [Hl|(-> & -> & _)]%bind_ver'; [exact (I_ver_nodup r l Hl)|apply NoDup_singleton].
  - (* I_ver_doc *)
    intros r l v [Hl|(-> & -> & _ & Ed)]%bind_ver' Hv.
    + eauto using lookup_weaken_is_Some.
    + destruct Hv as [<-|[]]. rewrite Ed, lookup_insert. eauto.
  - (* I_ver_seeds *)
    intros r l [Hl|(-> & -> & Hn & _)]%bind_ver'; [exact (I_ver_seeds r l Hl)|].
    destruct (d_seeds s !! ("did:sid:" +:+ b_root m)) as [sd|] eqn:Es; [|reflexivity].
    destruct (I_seeds_ver _ _ Es) as (r & <-%sid_inj & Hv).
    rewrite Hn in Hv. destruct (is_Some_None Hv).
  - (* I_seeds_ver *)
    intros d sd (r & Hr & Hv)%I_seeds_ver. eauto using lookup_weaken_is_Some.
  - (* I_bound_ver *)
    intros id d [[<- <-]|[_ Hd]]%lookup_insert_Some; [eauto|].
    destruct (I_bound_ver id d Hd) as (r & Hr & Hv). eauto using lookup_weaken_is_Some.
Qed.
End BindingFacts.

(** * UpdatePaymentAddress preserves the invariant *)
Section PayFacts.
Context (chain : string) (m : PayMsg) (s s' : DidState) (meth pid : string) (c : Caip10).
Hypothesis HP : PayOk chain m s s' meth pid c.
Hypothesis Hsane : parse_sane (p_did m) (p_parse m).

Lemma pay_meth :
  (meth = "sid" -> is_sid (p_did m) = true) /\ (meth = "key" -> is_keydid (p_did m) = true).
Proof. unfold parse_sane in Hsane. rewrite (P_parse _ _ _ _ _ _ _ HP) in Hsane. exact Hsane. Qed.

Lemma pay_keydid_change d :
  is_keydid d = true -> d_pay s !! d <> d_pay s' !! d ->
  d_pay s !! d = None /\ d_pay s' !! d = Some (p_creator m).
Proof.
  intros Hkey Hne. rewrite (P_pay' _ _ _ _ _ _ _ HP) in *.
  destruct (decide (p_did m = d)) as [E|E].
  - subst d. rewrite lookup_insert in *.
    destruct (P_case _ _ _ _ _ _ _ HP) as [(Hm & _)|(Hm & Hnone & Hcr & _)].
    + exfalso. apply (sid_not_key (p_did m)); [|exact Hkey]. apply pay_meth, Hm.
    + split; [exact Hnone|]. congruence.
  - rewrite lookup_insert_ne in Hne by exact E. congruence.
Qed.

Lemma pay_keydid_keep d p :
  is_keydid d = true -> d_pay s !! d = Some p -> d_pay s' !! d = Some p.
Proof.
  intros Hkey Hp. destruct (option_eq_dec (d_pay s !! d) (d_pay s' !! d)) as [E|E].
  - congruence.
  - destruct (pay_keydid_change d Hkey E) as [Hn _]. congruence.
Qed.

Hypothesis Hinv : Inv_did chain s.

Lemma pay_preserves : Inv_did chain s'.
Proof.
  pose proof pay_meth as [Hmsid Hmkey].
  refine (let '{| P_acc := Hacc; P_net := Hnet; P_chain := Hch; P_pay' := Epay'; P_case := Hcase;
                   P_auth' := Eauth; P_accid' := Eaccid; P_acclist' := Eacclist; P_did' := Edid;
                   P_seeds' := Eseeds; P_doc' := Edoc; P_ver' := Ever |} := HP in _).
  destruct Hinv.
  constructor; rewrite ?Eauth, ?Eaccid, ?Eacclist, ?Edid, ?Eseeds, ?Edoc, ?Ever; try assumption.
  all: rewrite Epay'.
  - (* I_pay_sid *)
    intros d p Hsid [[<- <-]|[_ Hp]]%lookup_insert_Some; [|exact (I_pay_sid d p Hsid Hp)].
    destruct Hcase as [(_ & Hd & _)|(Hm & _)]; [|destruct (sid_not_key (p_did m)); auto].
    exists (p_accid m), c. auto.
  - (* I_kid_pay *)
    intros a d Hk.
    destruct Hcase as [(Hm & _ & Ek)|(Hm & Hnone & _ & Hnk & Ek)]; rewrite Ek in Hk.
    + destruct (I_kid_pay a d Hk) as [Hp Hkey]. split; [|exact Hkey].
      rewrite lookup_insert_ne; [exact Hp|]. intros <-. apply (sid_not_key (p_did m)); auto.
    + apply lookup_insert_Some in Hk as [[<- <-]|[_ Hk]]; [split; [apply lookup_insert|auto]|].
      destruct (I_kid_pay a d Hk) as [Hp Hkey]. split; [|exact Hkey].
      rewrite lookup_insert_ne; [exact Hp|]. intros <-. congruence.
  - (* I_pay_key *)
    intros d p Hkey Hp. apply lookup_insert_Some in Hp.
    destruct Hcase as [(Hm & _ & Ek)|(Hm & Hnone & _ & Hnk & Ek)]; rewrite Ek.
    + destruct Hp as [[<- <-]|[_ Hp]]; [destruct (sid_not_key (p_did m)); auto|].
      exact (I_pay_key d p Hkey Hp).
    + destruct Hp as [[<- <-]|[_ Hp]]; [apply lookup_insert|].
      pose proof (I_pay_key d p Hkey Hp) as Hk.
      rewrite lookup_insert_ne; [exact Hk|]. intros <-. congruence.
  - (* I_pay_kind *)
    intros d p [[<- <-]|[_ Hp]]%lookup_insert_Some; [|exact (I_pay_kind d p Hp)].
    destruct Hcase as [(Hm & _)|(Hm & _)]; auto.
Qed.
End PayFacts.

(** * Main theorems *)
Theorem did_step_inv chain s op :
  Inv_did chain s -> op_sane op -> Inv_did chain (did_step chain s op).
Proof.
  intros Hinv Hsane. unfold did_step. destruct op as [now m|now m|m]; cbn [did_handle].
  - destruct (did_binding chain now m s) as [e|s'] eqn:E; [exact Hinv|].
    destruct (did_binding_inv _ _ _ _ _ E) as [c HB].
    exact (binding_preserves chain m s s' c HB Hinv).
  - destruct (did_update chain now m s) as [e|s'] eqn:E; [exact Hinv|].
    destruct (did_update_inv _ _ _ _ _ E) as (accl & pay & rm_ids & meth & pid & HU).
    exact (update_preserves chain m s s' accl pay rm_ids meth pid Hinv HU Hsane).
  - destruct (did_update_pay chain m s) as [e|s'] eqn:E; [exact Hinv|].
    destruct (did_update_pay_inv _ _ _ _ E) as (meth & pid & c & HP).
    exact (pay_preserves chain m s s' meth pid c HP Hsane Hinv).
Qed.
Print Assumptions did_step_inv.

Theorem did_run_inv chain ops s :
  Inv_did chain s -> Forall op_sane ops -> Inv_did chain (did_run chain ops s).
Proof.
  unfold did_run. revert s. induction ops as [|op ops IH]; intros s Hinv Hs; cbn [fold_left].
  - exact Hinv.
  - inversion Hs as [|? ? Hop Hops]; subst. apply IH; [|exact Hops].
    apply did_step_inv; assumption.
Qed.
Print Assumptions did_run_inv.

Theorem binding_accepted_authentic chain now m s s' :
  did_binding chain now m s = inr s' -> binding_authentic chain s m.
Proof.
  intros E.
  destruct (did_binding_inv _ _ _ _ _ E) as [c HB].
  refine (let '{| B_parse := Hparse; B_unbound := Hunbound; B_proof := Hp; B_docver := Hdv |} := HB in _).
  exists c. split; [exact Hparse|]. split.
  { unfold proof_ok in Hp.
    destruct (String.eqb (c_network c) "cosmos" && String.eqb (c_chainid c) chain) eqn:Ec.
    - left. apply andb_true_iff in Ec. rewrite !String.eqb_eq in Ec. destruct Ec as [Hn Hc].
      destruct (b_cosmos_signer m) as [a|]; [|discriminate].
      apply String.eqb_eq in Hp. subst a. auto.
    - right. destruct (String.eqb (c_network c) "eip155") eqn:Ee; [|discriminate].
      apply String.eqb_eq in Ee.
      destruct (b_eth_signer m) as [a|]; [|discriminate].
      apply String.eqb_eq in Hp. subst a. split; [exact Ee|]. split; [|reflexivity].
      intros [Hn _]. rewrite Ee in Hn. discriminate. }
  split; [exact Hunbound|].
  destruct Hdv as [(Hv & H & _)|(Hv & H & _)]; split; intros Hs; try exact H.
  - rewrite Hs in Hv. destruct (is_Some_None Hv).
  - rewrite Hv in Hs. destruct (is_Some_None Hs).
Qed.
Print Assumptions binding_accepted_authentic.

(* by [counting]: the remove list and the update list of an accepted Update are together
   exactly the stored account list *)
Theorem update_lists_exact chain now m s s' accl :
  Inv_did chain s -> did_update chain now m s = inr s' -> d_acclist s !! u_did m = Some accl ->
  NoDup (u_remove m ++ map fst (u_update m)) /\
  (forall a, In a (u_remove m ++ map fst (u_update m)) <-> In a accl).
Proof.
  intros Hinv E Hl.
  destruct (did_update_inv _ _ _ _ _ E) as (accl0 & pay & rm_ids & meth & pid & HU).
  pose proof (U_accl _ _ _ _ _ _ _ _ _ HU) as Hl0. rewrite Hl in Hl0. injection Hl0 as <-.
  exact (upd_counting chain m s s' accl pay rm_ids meth pid Hinv HU).
Qed.
Print Assumptions update_lists_exact.

Theorem update_requires_bound_creator chain now m s s' :
  did_update chain now m s = inr s' -> d_did s !! cosmos_id chain (u_creator m) = Some (u_did m).
Proof.
  intros E. destruct (did_update_inv _ _ _ _ _ E) as (accl & pay & rm_ids & meth & pid & HU).
  exact (U_creator _ _ _ _ _ _ _ _ _ HU).
Qed.
Print Assumptions update_requires_bound_creator.

Theorem update_keeps_payment chain now m s s' :
  did_update chain now m s = inr s' -> d_pay s' = d_pay s.
Proof.
  intros E. destruct (did_update_inv _ _ _ _ _ E) as (accl & pay & rm_ids & meth & pid & HU).
  exact (U_pay' _ _ _ _ _ _ _ _ _ HU).
Qed.
Print Assumptions update_keeps_payment.

(* the account that owns the payment address cannot be unbound by an Update *)
Theorem update_keeps_payment_account chain now m s s' :
  Inv_did chain s -> op_sane (OpUpdate now m) -> did_update chain now m s = inr s' ->
  exists pay id c, d_pay s' !! u_did m = Some pay /\ d_did s' !! id = Some (u_did m) /\
                   parse_account_id id = Some c /\ c_network c = "cosmos" /\
                   c_chainid c = chain /\ c_address c = pay.
Proof.
  intros Hinv Hsane E.
  destruct (did_update_inv _ _ _ _ _ E) as (accl & pay & rm_ids & meth & pid & HU).
  pose proof (update_preserves chain m s s' accl pay rm_ids meth pid Hinv HU Hsane) as Hinv'.
  assert (Hp : d_pay s' !! u_did m = Some pay).
  { rewrite (U_pay' _ _ _ _ _ _ _ _ _ HU). exact (U_pay _ _ _ _ _ _ _ _ _ HU). }
  assert (Hsid : is_sid (u_did m) = true).
  { exact (I_bound_sid _ _ Hinv _ _ (U_creator _ _ _ _ _ _ _ _ _ HU)). }
  destruct (I_pay_sid _ _ Hinv' _ _ Hsid Hp) as (id & c & H).
  exists pay, id, c. split; [exact Hp|exact H].
Qed.
Print Assumptions update_keeps_payment_account.

Theorem keydid_pay_self_set chain m s s' d :
  is_keydid d = true -> op_sane (OpUpdatePay m) ->
  did_update_pay chain m s = inr s' -> d_pay s !! d <> d_pay s' !! d ->
  d_pay s !! d = None /\ d_pay s' !! d = Some (p_creator m).
Proof.
  intros Hkey Hsane E Hne.
  destruct (did_update_pay_inv _ _ _ _ E) as (meth & pid & c & HP).
  exact (pay_keydid_change chain m s s' meth pid c HP Hsane d Hkey Hne).
Qed.
Print Assumptions keydid_pay_self_set.

Lemma keydid_pay_kept chain s op d p :
  op_sane op -> is_keydid d = true ->
  d_pay s !! d = Some p -> d_pay (did_step chain s op) !! d = Some p.
Proof.
  intros Hsane Hkey Hp. unfold did_step. destruct op as [now m|now m|m]; cbn [did_handle].
  - destruct (did_binding chain now m s) as [e|s'] eqn:E; [exact Hp|].
    destruct (did_binding_inv _ _ _ _ _ E) as [c HB].
    eapply lookup_weaken; [exact Hp|apply (bind_docver_grows chain m s s' c HB)].
  - destruct (did_update chain now m s) as [e|s'] eqn:E; [exact Hp|].
    rewrite (update_keeps_payment _ _ _ _ _ E). exact Hp.
  - destruct (did_update_pay chain m s) as [e|s'] eqn:E; [exact Hp|].
    destruct (did_update_pay_inv _ _ _ _ E) as (meth & pid & c & HP).
    exact (pay_keydid_keep chain m s s' meth pid c HP Hsane d p Hkey Hp).
Qed.

Theorem keydid_pay_immutable chain s op d p :
  Inv_did chain s -> op_sane op -> is_keydid d = true ->
  d_pay s !! d = Some p -> d_pay (did_step chain s op) !! d = Some p.
Proof. intros _. apply keydid_pay_kept. Qed.
Print Assumptions keydid_pay_immutable.

(** * Non-vacuity: the theorems exercised on a concrete run *)
Definition ex_bind1 : BindingMsg :=
  {| b_creator := "alice"; b_accid := "cosmos:sao:alice"; b_root := "r1";
     b_keys := [("k", "v")]; b_accdid := "did:key:acc1"; b_auth := ("seed", "enc");
     b_pdid := "did:sid:r1"; b_pts := 100; b_message := "bind did";
     b_cosmos_signer := Some "alice"; b_eth_signer := None; b_calc := Some "r1" |}.
Definition ex_bind2 : BindingMsg :=
  {| b_creator := "alice"; b_accid := "eip155:1:0xabc"; b_root := "r1";
     b_keys := [("k", "v")]; b_accdid := "did:key:acc2"; b_auth := ("seed2", "enc2");
     b_pdid := "did:sid:r1"; b_pts := 100; b_message := "bind did";
     b_cosmos_signer := None; b_eth_signer := Some "0xabc"; b_calc := None |}.
Definition ex_pay : PayMsg :=
  {| p_creator := "bob"; p_accid := "cosmos:sao:bob"; p_did := "did:key:bob1";
     p_parse := Some ("key", "bob1") |}.
Definition ex_update : UpdateMsg :=
  {| u_creator := "alice"; u_did := "did:sid:r1"; u_newdoc := "r2"; u_keys := [("k", "v2")];
     u_ts := 200; u_update := [("did:key:acc1", ("seed3", "enc3"))];
     u_remove := ["did:key:acc2"]; u_seed := "seed";
     u_parse := Some ("sid", "r1"); u_calc := Some "r2" |}.

Definition ex_ops : list DidOp := [OpBinding 100 ex_bind1; OpBinding 150 ex_bind2; OpUpdatePay ex_pay].
Definition ex_ops2 : list DidOp := ex_ops ++ [OpUpdate 250 ex_update].

Example ex_ops_sane : Forall op_sane ex_ops2.
Proof.
  unfold ex_ops2, ex_ops. cbn [app].
  apply Forall_cons_2; [exact I|]. apply Forall_cons_2; [exact I|].
  apply Forall_cons_2.
  { cbn. split; [intros H; discriminate H|intros _; reflexivity]. }
  apply Forall_cons_2; [|apply Forall_nil_2].
  cbn. intros meth id H _. injection H as <- <-. reflexivity.
Qed.

Example ex_ops_sane1 : Forall op_sane ex_ops.
Proof.
  pose proof ex_ops_sane as H. unfold ex_ops2 in H. apply Forall_app in H. exact (proj1 H).
Qed.

Example ex_run_state :
  let s := did_run "sao" ex_ops did_empty in
  size (d_did s) = 2%nat /\
  d_did s !! "cosmos:sao:alice" = Some "did:sid:r1" /\
  d_did s !! "eip155:1:0xabc" = Some "did:sid:r1" /\
  d_acclist s !! "did:sid:r1" = Some ["did:key:acc1"; "did:key:acc2"] /\
  size (d_auth s) = 2%nat /\ size (d_accid s) = 2%nat /\
  d_pay s !! "did:sid:r1" = Some "alice" /\
  d_pay s !! "did:key:bob1" = Some "bob" /\
  d_kid s !! "bob" = Some "did:key:bob1" /\
  d_ver s !! "r1" = Some ["r1"] /\ size (d_doc s) = 1%nat.
Proof. vm_compute. repeat split; reflexivity. Qed.
Print Assumptions ex_run_state.

Example ex_run_state2 :
  let s := did_run "sao" ex_ops2 did_empty in
  size (d_did s) = 1%nat /\
  d_did s !! "cosmos:sao:alice" = Some "did:sid:r1" /\
  d_did s !! "eip155:1:0xabc" = None /\
  d_acclist s !! "did:sid:r1" = Some ["did:key:acc1"] /\
  d_auth s !! "did:key:acc1" = Some ("seed3", "enc3") /\
  size (d_auth s) = 1%nat /\ size (d_accid s) = 1%nat /\
  d_pay s !! "did:sid:r1" = Some "alice" /\
  d_seeds s !! "did:sid:r1" = Some ["seed"] /\
  d_ver s !! "r1" = Some ["r1"; "r2"] /\ size (d_doc s) = 2%nat.
Proof. vm_compute. repeat split; reflexivity. Qed.
Print Assumptions ex_run_state2.

Example ex_run_inv : Inv_did "sao" (did_run "sao" ex_ops did_empty).
Proof. apply did_run_inv; [apply did_empty_inv|exact ex_ops_sane1]. Qed.
Print Assumptions ex_run_inv.

Example ex_run_inv2 : Inv_did "sao" (did_run "sao" ex_ops2 did_empty).
Proof. apply did_run_inv; [apply did_empty_inv|exact ex_ops_sane]. Qed.
Print Assumptions ex_run_inv2.

Example ex_binding_authentic : binding_authentic "sao" did_empty ex_bind1.
Proof. eapply (binding_accepted_authentic "sao" 100). reflexivity. Qed.
Print Assumptions ex_binding_authentic.
