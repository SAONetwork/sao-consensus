(* What is used by every file and mentions no frame predicate: membership tests, inversion of an accepted outcome
   of the monad, accepted transactions of [step], runs, the shard of a provider. *)
From SaoVerif Require Import Base.Prelude Base.Ints Base.Dec Model.Did Model.Types Model.Monad Model.Bank Model.Select
     Model.Node Model.Storage Model.Sao Model.Hooks Model.App Model.Spec.

(** * membership tests *)
Lemma existsb_eqb_reflect {A} (eqb : A -> A -> bool) :
  (forall x y, reflect (x = y) (eqb x y)) ->
  forall x l, reflect (x ∈ l) (existsb (eqb x) l).
Proof.
  intros Heqb x l. induction l as [|y l IH]; cbn [existsb].
  - right. apply not_elem_of_nil.
  - destruct (Heqb x y) as [->|Hne]; cbn [orb]; [left; apply elem_of_list_here|].
    destruct IH as [Hin|Hnin]; constructor; rewrite elem_of_cons; tauto.
Qed.

Lemma in_list_spec x l : reflect (x ∈ l) (in_list x l).
Proof. apply existsb_eqb_reflect, String.eqb_spec. Qed.
Lemma in_list_true x l : in_list x l = true <-> x ∈ l.
Proof. symmetry. apply reflect_iff, in_list_spec. Qed.
Lemma in_list_false x l : in_list x l = false <-> x ∉ l.
Proof. rewrite <- in_list_true. symmetry. apply not_true_iff_false. Qed.
Lemma in_list_In x l : in_list x l = true <-> In x l.
Proof. rewrite in_list_true. apply elem_of_list_In. Qed.

(** * bind *)
Lemma bind_ok {A B} (m : M A) (k : A -> M B) s b s' :
  bind m k s = Ok b s' -> exists a s1, m s = Ok a s1 /\ k a s1 = Ok b s'.
Proof. unfold bind. destruct (m s); try discriminate. eauto. Qed.

Lemma bind_get {A} (k : State -> M A) s : bind get k s = k s s.
Proof. reflexivity. Qed.
Lemma bind_modify {A} g (k : unit -> M A) s : bind (modify g) k s = k tt (g s).
Proof. reflexivity. Qed.
Lemma bind_ret {A B} (a : A) (k : A -> M B) s : bind (ret a) k s = k a s.
Proof. reflexivity. Qed.

(* for a guard whose then-branch [m0] is a [fail] or a [panic]; a rule, so that the guard is not abstracted over
   the program that follows *)
Lemma if_ok {A} (c : bool) (m0 m : M A) s a s' : (if c then m0 else m) s = Ok a s' -> m0 s <> Ok a s' -> m s = Ok a s'.
Proof. destruct c; [contradiction|auto]. Qed.
Lemma if_false_ok {A} (c : bool) (m0 m : M A) s r : (if c then m0 else m) s = r -> c = false -> m s = r.
Proof. intros H ->. exact H. Qed.
Lemma option_ok {A B} (x : option B) (m0 : M A) (k : B -> M A) s a s' :
  match x with Some y => k y | None => m0 end s = Ok a s' -> m0 s <> Ok a s' -> exists y, x = Some y /\ k y s = Ok a s'.
Proof. destruct x; [eauto|contradiction]. Qed.

Lemma try_ok {A} (m : M A) s r s' :
  try_ m s = Ok r s' -> (exists a, m s = Ok a s' /\ r = Some a) \/ (exists e, m s = Err e s' /\ r = None).
Proof.
  unfold try_. destruct (m s) as [a s1|e s1|e|]; try discriminate; intros H; inversion H; subst; eauto.
Qed.
Lemma try_not_err {A} (m : M A) s e s' : try_ m s <> Err e s'.
Proof. unfold try_. destruct (m s); discriminate. Qed.

(** * accepted transactions *)
Lemma deliver_ok (m : M unit) s s' d :
  (let '(s1, c1, d1) := deliver m s in (s1, OutTx c1 d1)) = (s', OutTx COk d) -> m s = Ok tt s'.
Proof.
  unfold deliver. destruct (m s) as [[] s1|e s1|e|]; intros H; inversion H. reflexivity.
Qed.

Lemma step_tx_ok cx s op m s' d :
  tx_of cx op = Some m -> step cx s op = (s', OutTx COk d) -> m s = Ok tt s'.
Proof.
  intros Htx Hst. apply (deliver_ok m s s' d).
  destruct op; simpl in Htx; try discriminate; unfold step in Hst; simpl tx_of in Hst;
    inversion Htx; subst; exact Hst.
Qed.

(* lets a concrete step be checked through its outcome alone *)
Lemma step_to cx s op out : snd (step cx s op) = out -> step cx s op = (fst (step cx s op), out).
Proof. intros <-. apply surjective_pairing. Qed.

(** * runs *)
Lemma run_cons cx op tr s : run ((cx, op) :: tr) s = run tr (fst (step cx s op)).
Proof. reflexivity. Qed.
Lemma run_snoc tr cx op s : run (tr ++ [(cx, op)]) s = fst (step cx (run tr s) op).
Proof. unfold run. rewrite fold_left_app. reflexivity. Qed.

(* The induction over a run, once. [C tr s] is whatever is required along the run [tr] from [s]
   (a condition on the operations, or on the states passed through); a step must keep the
   invariant and hand the requirement on to the rest of the run. *)
Lemma run_preserves (I : State -> Prop) (C : list (Ctx * Op) -> State -> Prop) :
  (forall cx op tr s, C ((cx, op) :: tr) s -> I s -> I (fst (step cx s op)) /\ C tr (fst (step cx s op))) ->
  forall tr s, C tr s -> I s -> I (run tr s).
Proof.
  intros Hstep tr. induction tr as [|[cx op] tr IH]; intros s HC HI; [exact HI|].
  destruct (Hstep cx op tr s HC HI) as [HI' HC']. rewrite run_cons. exact (IH _ HC' HI').
Qed.

Lemma shard_by_sp_sp s o sp sid sh : shard_by_sp s o sp = Some (sid, sh) -> sh_sp sh = sp.
Proof.
  unfold shard_by_sp. intros H.
  assert (Hin : (sid, sh) ∈ omap (fun id => match shards s !! id with
                               | Some sh => if String.eqb (sh_sp sh) sp then Some (id, sh) else None
                               | None => None end) (o_shards o)).
  { destruct (omap _ (o_shards o)) as [|x l]; simpl in H; [discriminate|]. inversion H; subst. left. }
  apply elem_of_list_omap in Hin. destruct Hin as [id [_ Hid]].
  destruct (shards s !! id) as [sh0|]; [|discriminate].
  destruct (String.eqb (sh_sp sh0) sp) eqn:E; [|discriminate].
  inversion Hid; subst. apply String.eqb_eq. exact E.
Qed.
