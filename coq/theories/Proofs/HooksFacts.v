(* Facts about the staking hooks of x/node and the process-level variable
   sharesBeforeModified ([pg]): where it can change, when it is left non-zero, what the
   residue does to consensus results (finding D10), soundness of promotion to the super
   role when there is no residue, independence of map-iteration order. *)
From SaoVerif Require Import Base.Prelude Base.Ints Base.Dec Model.Did Model.Types Model.Monad Model.Bank Model.Select
     Model.Node Model.Storage Model.Sao Model.Hooks Model.App Model.Spec Proofs.Frame.
From RecordUpdate Require Import RecordUpdate.
Import RecordSetNotations.

(** * The keeper functions leave the process variable alone *)

(* One [pgp_X] per keeper function, each an instance of [X_ok] of Frame.v; the theorems further down get the
   same through [step_keeps_staking]. *)
Definition pgp {A} (m : M A) : Prop :=
  forall s, match m s with Ok _ s' | Err _ s' => pg s' = pg s | _ => True end.

Lemma pgp_keeps {A} (m : M A) : pgp m <-> keeps pg m.
Proof. reflexivity. Qed.

Lemma pgp_core {A} (m : M A) : mok (eqon core) true m -> pgp m.
Proof. apply mok_sub. sub_tac. Qed.
Lemma pgp_nofault {A} (m : M A) : mok (eqon nofault) true m -> pgp m.
Proof. apply mok_sub. sub_tac. Qed.

(* with hanging allowed, the facts of Frame.v need nothing of the seed *)
Lemma hang_allowed cx : seed_ok cx \/ true = true.
Proof. right. reflexivity. Qed.

Lemma pgp_send_lenient f t a : pgp (send_lenient f t a).
Proof. apply pgp_core, send_lenient_ok. Qed.
Lemma pgp_mint m a : pgp (mint m a).
Proof. apply (mok_sub nomint pg true); [sub_tac|apply mint_ok]. Qed.
Lemma pgp_lift_did cx o : pgp (lift_did cx o).
Proof. apply (mok_sub nodid pg true); [sub_tac|apply lift_did_ok]. Qed.

Lemma pgp_coin_sub a b : pgp (coin_sub a b).
Proof. apply pgp_core, coin_sub_ok. Qed.

Lemma pgp_node_create cx c : pgp (node_create cx c).
Proof. apply pgp_core, node_create_ok. Qed.
Lemma pgp_node_reset cx m : pgp (node_reset cx m).
Proof. apply pgp_core, node_reset_ok. Qed.
Lemma pgp_add_vstorage c sz : pgp (add_vstorage c sz).
Proof. apply pgp_core, add_vstorage_ok. Qed.
Lemma pgp_remove_vstorage c sz : pgp (remove_vstorage c sz).
Proof. apply pgp_core, remove_vstorage_ok. Qed.

Lemma pgp_repay_debt sp rw : pgp (repay_debt sp rw).
Proof. apply pgp_core, repay_debt_ok. Qed.
Lemma pgp_shard_pledge id sh price : pgp (shard_pledge id sh price).
Proof. apply pgp_core, shard_pledge_ok. Qed.
Lemma pgp_shard_release sp sh : pgp (shard_release sp sh).
Proof. apply pgp_core, shard_release_ok. Qed.
Lemma pgp_market_claim cx sp : pgp (market_claim cx sp).
Proof. apply pgp_core, market_claim_ok. Qed.
Lemma pgp_claim_reward cx c : pgp (claim_reward cx c).
Proof. apply pgp_core, claim_reward_ok. Qed.
Lemma pgp_increase_reputation n v : pgp (increase_reputation n v).
Proof. apply pgp_core, increase_reputation_ok. Qed.
Lemma pgp_random_sp_m cx c ig sz : pgp (random_sp_m cx c ig sz).
Proof. apply pgp_core, random_sp_m_ok, hang_allowed. Qed.

Lemma pgp_send_to_did_balances m d a : pgp (send_to_did_balances m d a).
Proof. apply pgp_core, send_to_did_balances_ok. Qed.
Lemma pgp_worker_release cx o sh : pgp (worker_release cx o sh).
Proof. apply pgp_core, worker_release_ok. Qed.
Lemma pgp_worker_append cx o sh : pgp (worker_append cx o sh).
Proof. apply pgp_core, worker_append_ok. Qed.
Lemma pgp_market_deposit o : pgp (market_deposit o).
Proof. apply pgp_core, market_deposit_ok. Qed.
Lemma pgp_market_withdraw cx oid o : pgp (market_withdraw cx oid o).
Proof. apply pgp_core, market_withdraw_ok. Qed.
Lemma pgp_append_order o : pgp (append_order o).
Proof. apply pgp_core, append_order_ok. Qed.
Lemma pgp_append_shard sh : pgp (append_shard sh).
Proof. apply pgp_core, append_shard_ok. Qed.
Lemma pgp_new_shard_task oid o p : pgp (new_shard_task oid o p).
Proof. apply pgp_core, new_shard_task_ok. Qed.
Lemma pgp_gen_shards oid sps : forall o, pgp (gen_shards oid o sps).
Proof. intros o. apply pgp_core, gen_shards_ok. Qed.
Lemma pgp_generate_shards oid o sps : pgp (generate_shards oid o sps).
Proof. apply pgp_core, generate_shards_ok. Qed.
Lemma pgp_new_order cx o sps : pgp (new_order cx o sps).
Proof. apply pgp_core, new_order_ok. Qed.
Lemma pgp_renew_order o : pgp (renew_order o).
Proof. apply pgp_core, renew_order_ok. Qed.
Lemma pgp_order_terminate oid r : pgp (order_terminate oid r).
Proof. apply pgp_core, order_terminate_ok. Qed.
Lemma pgp_refund_order oid : pgp (refund_order oid).
Proof. apply pgp_core, refund_order_ok. Qed.
Lemma pgp_set_data_expire d a : pgp (set_data_expire d a).
Proof. apply pgp_core, set_data_expire_ok. Qed.
Lemma pgp_remove_data_expire d a : pgp (remove_data_expire d a).
Proof. apply pgp_core, remove_data_expire_ok. Qed.
Lemma pgp_new_meta cx o d m : pgp (new_meta cx o d m).
Proof. apply pgp_core, new_meta_ok. Qed.
Lemma pgp_reset_meta_duration cx d m : pgp (reset_meta_duration cx d m).
Proof. apply pgp_core, reset_meta_duration_ok. Qed.
Lemma pgp_extend_meta_duration d e : pgp (extend_meta_duration d e).
Proof. apply pgp_core, extend_meta_duration_ok. Qed.
Lemma pgp_delete_meta d : pgp (delete_meta d).
Proof. apply pgp_core, delete_meta_ok. Qed.
Lemma pgp_model_terminate_order cx oid o : pgp (model_terminate_order cx oid o).
Proof. apply pgp_core, model_terminate_order_ok. Qed.
Lemma pgp_remove_shards ids : pgp (remove_shards ids).
Proof. apply pgp_core, remove_shards_ok. Qed.
Lemma pgp_force_push_loop cx lc ro : forall acc, pgp (force_push_loop cx ro lc acc).
Proof. intros acc. apply pgp_core, force_push_loop_ok. Qed.
Lemma pgp_update_meta cx oid o : pgp (update_meta cx oid o).
Proof. apply pgp_core, update_meta_ok. Qed.
Lemma pgp_update_meta_status_commit cx oid o : pgp (update_meta_status_commit cx oid o).
Proof. apply pgp_core, update_meta_status_commit_ok. Qed.
Lemma pgp_rollback_meta cx d : pgp (rollback_meta cx d).
Proof. apply pgp_core, rollback_meta_ok. Qed.
Lemma pgp_cancel_order cx oid : pgp (cancel_order cx oid).
Proof. apply pgp_core, cancel_order_ok. Qed.
Lemma pgp_update_permission ow d ro rw : pgp (update_permission ow d ro rw).
Proof. apply pgp_core, update_permission_ok. Qed.
Lemma pgp_end_block_model cx : pgp (end_block_model cx).
Proof. apply pgp_core, end_block_model_ok. Qed.

Lemma pgp_set_timeout_block oid h : pgp (set_timeout_block oid h).
Proof. apply pgp_core, set_timeout_block_ok. Qed.
Lemma pgp_set_expired_shard_block sid h : pgp (set_expired_shard_block sid h).
Proof. apply pgp_core, set_expired_shard_block_ok. Qed.
Lemma pgp_get_sps cx o d : pgp (get_sps cx o d).
Proof. apply pgp_core, get_sps_ok, hang_allowed. Qed.
Lemma pgp_sao_store cx m : pgp (sao_store cx m).
Proof. apply pgp_core, sao_store_ok, hang_allowed. Qed.
Lemma pgp_sao_ready cx c p o : pgp (sao_ready cx c p o).
Proof. apply pgp_core, sao_ready_ok, hang_allowed. Qed.
Lemma pgp_complete_migration cx oid o sid sh : pgp (complete_migration cx oid o sid sh).
Proof. apply pgp_core, complete_migration_ok. Qed.
Lemma pgp_sao_complete cx c p oid cid sz ok : pgp (sao_complete cx c p oid cid sz ok).
Proof. apply pgp_core, sao_complete_ok. Qed.
Lemma pgp_sao_cancel cx c p oid : pgp (sao_cancel cx c p oid).
Proof. apply pgp_core, sao_cancel_ok. Qed.
Lemma pgp_renew_one cx m sd d : pgp (renew_one cx m sd d).
Proof. apply pgp_core, renew_one_ok. Qed.
Lemma pgp_sao_renew cx m : pgp (sao_renew cx m).
Proof. apply pgp_core, sao_renew_ok. Qed.
Lemma pgp_sao_terminate cx c p ow d sg : pgp (sao_terminate cx c p ow d sg).
Proof. apply pgp_core, sao_terminate_ok. Qed.
Lemma pgp_migrate_one cx p d : pgp (migrate_one cx p d).
Proof. apply pgp_core, migrate_one_ok, hang_allowed. Qed.
Lemma pgp_sao_migrate cx c p d : pgp (sao_migrate cx c p d).
Proof. apply pgp_core, sao_migrate_ok, hang_allowed. Qed.
Lemma pgp_sao_update_permission cx c p ow d ro rw sg v : pgp (sao_update_permission cx c p ow d ro rw sg v).
Proof. apply pgp_core, sao_update_permission_ok. Qed.
Lemma pgp_set_fault k f : pgp (set_fault k f).
Proof. apply pgp_nofault, set_fault_ok. Qed.
Lemma pgp_sao_report_faults cx c p fl : pgp (sao_report_faults cx c p fl).
Proof. apply pgp_nofault, sao_report_faults_ok. Qed.
Lemma pgp_sao_recover_faults cx c p fl : pgp (sao_recover_faults cx c p fl).
Proof. apply pgp_nofault, sao_recover_faults_ok. Qed.
Lemma pgp_handle_timeout_order cx oid : pgp (handle_timeout_order cx oid).
Proof. apply pgp_core, handle_timeout_order_ok, hang_allowed. Qed.
Lemma pgp_handle_expired_shard cx sid : pgp (handle_expired_shard cx sid).
Proof. apply pgp_core, handle_expired_shard_ok. Qed.

(** * Residue *)

Theorem pg_only_staking : forall cx s op, (forall evs, op <> OStaking evs) -> (forall evs, op <> OSimulate evs) ->
  (forall evs, op = OEndBlock evs -> evs = []) -> pg (fst (step cx s op)) = pg s.
Proof.
  intros cx s op H1 H2 H3. apply step_keeps_staking.
  destruct op; try reflexivity.
  - rewrite (H3 evs eq_refl). reflexivity.
  - destruct (H1 evs eq_refl).
  - destruct (H2 evs eq_refl).
Qed.
Print Assumptions pg_only_staking.

Lemma step_staking_Ok cx s evs s' d :
  step cx s (OStaking evs) = (s', OutTx COk d) -> staking_tx evs s = Ok tt s'.
Proof. apply step_tx_ok. reflexivity. Qed.

Lemma staking_tx_cons e evs s u s' :
  staking_tx (e :: evs) s = Ok u s' -> exists s1, st_event e s = Ok tt s1 /\ staking_tx evs s1 = Ok u s'.
Proof. unfold staking_tx. simpl. intros H. apply bind_ok in H as ([] & s1 & H1 & H2). eauto. Qed.
Lemma staking_tx_nil s u s' : staking_tx [] s = Ok u s' -> s' = s.
Proof. unfold staking_tx. simpl. unfold ret. congruence. Qed.

Lemma ev_before_shares_Ok del val s u s1 :
  st_event (EvBeforeShares del val) s = Ok u s1 -> exists sh, del_shares s del val = Some sh /\ s1 = s <| pg := sh |>.
Proof.
  unfold st_event, bind, get. destruct (del_shares s del val) as [sh|]; [|discriminate].
  unfold modify. intros H. inversion H. eauto.
Qed.

Lemma elem_of_sorted_items {A} (m : gmap string A) k x : (k, x) ∈ sorted_items m <-> m !! k = Some x.
Proof. unfold sorted_items. rewrite merge_sort_Permutation. apply elem_of_map_to_list. Qed.

Lemma filter_head_elem {A} (P : A -> Prop) `{forall x, Decision (P x)} (l : list A) x r :
  filter P l = x :: r -> P x /\ x ∈ l.
Proof. intros E. apply (elem_of_list_filter P l x). rewrite E. left. Qed.

Lemma find_del_frame s0 s1 del val : dels s1 = dels s0 -> find_del s1 del val = find_del s0 del val.
Proof. intros E. unfold find_del. rewrite E. reflexivity. Qed.
Lemma check_share_frame s0 s1 d v sub :
  dels s1 = dels s0 -> vals s1 = vals s0 -> nparams s1 = nparams s0 -> check_share s1 d v sub = check_share s0 d v sub.
Proof. intros E1 E2 E3. unfold check_share. rewrite (find_del_frame s0 s1 _ _ E1), E2, E3. reflexivity. Qed.

(* the body of the loop of [verify_super], with the subtracted amount as a parameter: a copy that has to stay
   convertible with the text in Model/Hooks.v ([verify_super_Ok] installs it by [change]) *)
Definition vs_body (val : string) (acc : option string) (before_removed : bool) (sub : Z) (kv : string * Delegation) : M unit :=
    let d := dl_del kv.2 in
    s1 <- get ;;
    match nodes s1 !! d with
    | None => ret tt
    | Some n =>
        if negb (String.eqb (n_val n) "" || String.eqb (n_val n) val) then ret tt else
        let demote := if n_role n =? 1 then set_role d 0 None else ret tt in
        if before_removed && (match acc with Some a => String.eqb d a | None => false end) then demote else
        if negb (Z.land (n_status n) STATUS_SUPER_REQ =? STATUS_SUPER_REQ) then demote else
        if negb (match pledges s1 !! d with Some p => np_vthreshold (nparams s1) <=? pl_total p | None => false end) then demote else
        if check_share s1 d val sub then
          (if n_role n =? 0 then set_role d 1 (Some val) else ret tt)
        else demote
    end.

(* sharesToSub; [None] = the nil-delegation panic *)
Definition vs_sub (s : State) (val : string) (acc : option string) (before_removed : bool) : option Z :=
  match acc with
  | Some a =>
      if pg s =? 0 then Some 0 else
      match del_shares s a val with
      | None => None
      | Some cur => if cur <? pg s then Some (pg s - cur) else if before_removed then Some cur else Some 0
      end
  | None => Some 0
  end.

(* the conditions of the super role as the hook evaluates them; cf. [super_ok_hook] *)
Definition hook_ok (s : State) (val : string) (sub : Z) (addr : string) (n : Node) : Prop :=
  Z.land (n_status n) STATUS_SUPER_REQ = STATUS_SUPER_REQ /\
  (exists p, pledges s !! addr = Some p /\ np_vthreshold (nparams s) <= pl_total p) /\
  check_share s addr val sub = true.

Definition same_staking (s0 s1 : State) : Prop :=
  pledges s1 = pledges s0 /\ nparams s1 = nparams s0 /\ vals s1 = vals s0 /\ dels s1 = dels s0.

(* what a run of the hook's loop can do to the node table *)
Definition Rel (val : string) (sub : Z) (s0 s1 : State) : Prop :=
  same_staking s0 s1 /\
  forall addr n1, nodes s1 !! addr = Some n1 ->
    exists n0, nodes s0 !! addr = Some n0 /\ n_status n1 = n_status n0 /\
      (n_role n1 = 1 -> n1 = n0 \/ (n_val n1 = val /\ hook_ok s0 val sub addr n1)).

(* what it establishes for the delegator [d] *)
Definition Qsup (val : string) (sub : Z) (s : State) (d : string) : Prop :=
  forall n, nodes s !! d = Some n -> n_val n = "" \/ n_val n = val -> n_role n = 1 -> hook_ok s val sub d n.

Lemma hook_ok_frame s0 s1 val sub addr n : same_staking s0 s1 -> hook_ok s1 val sub addr n <-> hook_ok s0 val sub addr n.
Proof.
  intros (E1 & E2 & E3 & E4). unfold hook_ok. rewrite E1, E2, (check_share_frame s0 s1) by assumption. reflexivity.
Qed.

Lemma Qsup_frame val sub s1 s2 d : same_staking s1 s2 -> nodes s2 !! d = nodes s1 !! d -> Qsup val sub s1 d -> Qsup val sub s2 d.
Proof. intros F En Q n Hn Hv Hr. rewrite En in Hn. apply (hook_ok_frame s1 s2); auto. Qed.

Lemma Rel_refl val sub s : Rel val sub s s.
Proof. split. repeat split. intros addr n1 H. exists n1. auto. Qed.

Lemma Rel_trans val sub s0 s1 s2 : Rel val sub s0 s1 -> Rel val sub s1 s2 -> Rel val sub s0 s2.
Proof.
  intros [F1 N1] [F2 N2]. split.
  - destruct F1 as (?&?&?&?), F2 as (?&?&?&?). repeat split; congruence.
  - intros addr n2 H2. destruct (N2 _ _ H2) as (n1 & H1 & St2 & R2).
    destruct (N1 _ _ H1) as (n0 & H0 & St1 & R1). exists n0. split; [exact H0|]. split; [congruence|].
    intros Hr. destruct (R2 Hr) as [->|[Hv Hok]].
    + apply R1. exact Hr.
    + right. split; [exact Hv|]. apply (hook_ok_frame s0 s1); assumption.
Qed.

Lemma Rel_set_node val sub s d n n' : nodes s !! d = Some n -> n_status n' = n_status n ->
  (n_role n' = 1 -> n_val n' = val /\ hook_ok s val sub d n') ->
  Rel val sub s (s <| nodes ::= <[d := n']> |>).
Proof.
  intros E Hs Hr. split. repeat split. intros addr n1. simpl.
  destruct (decide (addr = d)) as [->|Hne].
  - rewrite lookup_insert. intros [= <-]. exists n. auto.
  - rewrite lookup_insert_ne by congruence. intros H. exists n1. auto.
Qed.

Lemma set_role_some d role v s n : nodes s !! d = Some n ->
  set_role d role v s = Ok tt (s <| nodes ::= <[d := match v with Some v => n <| n_role := role |> <| n_val := v |>
                                                       | None => n <| n_role := role |> end]> |>).
Proof. intros E. unfold set_role, modify. rewrite E. reflexivity. Qed.

Inductive vs_step (val : string) (sub : Z) (d : string) (s : State) : State -> Prop :=
| vs_keep : Qsup val sub s d -> vs_step val sub d s s
| vs_demote n : nodes s !! d = Some n -> vs_step val sub d s (s <| nodes ::= <[d := n <| n_role := 0 |>]> |>)
| vs_promote n : nodes s !! d = Some n -> hook_ok s val sub d n ->
    vs_step val sub d s (s <| nodes ::= <[d := n <| n_role := 1 |> <| n_val := val |>]> |>).

Lemma vs_body_step val acc br sub kv s1 :
  exists s2, vs_body val acc br sub kv s1 = Ok tt s2 /\ vs_step val sub (dl_del kv.2) s1 s2.
Proof.
  unfold vs_body. cbv zeta. unfold bind at 1, get. set (d := dl_del kv.2).
  assert (Keep : Qsup val sub s1 d -> exists s2, ret tt s1 = Ok tt s2 /\ vs_step val sub d s1 s2).
  { intros Q. exists s1. split; [reflexivity|]. apply vs_keep, Q. }
  destruct (nodes s1 !! d) as [n|] eqn:En; [|apply Keep; intros n Hn; congruence].
  assert (Keep' : (n_val n = "" \/ n_val n = val -> n_role n = 1 -> hook_ok s1 val sub d n) ->
                  exists s2, ret tt s1 = Ok tt s2 /\ vs_step val sub d s1 s2).
  { intros Q. apply Keep. intros n' Hn'. rewrite En in Hn'. injection Hn' as <-. exact Q. }
  assert (Dm : exists s2, (if n_role n =? 1 then set_role d 0 None else ret tt) s1 = Ok tt s2 /\ vs_step val sub d s1 s2).
  { destruct (n_role n =? 1) eqn:Er.
    - rewrite (set_role_some _ _ _ _ _ En). eexists. split; [reflexivity|]. apply vs_demote, En.
    - apply Keep'. intros _ Hr. rewrite Hr in Er. discriminate. }
  destruct (String.eqb (n_val n) "" || String.eqb (n_val n) val) eqn:Ev; cbn [negb].
  2: { apply Keep'. intros Hv. apply orb_false_iff in Ev. destruct Ev as [E1%String.eqb_neq E2%String.eqb_neq]. tauto. }
  destruct (br && _); [exact Dm|].
  destruct (Z.land (n_status n) STATUS_SUPER_REQ =? STATUS_SUPER_REQ) eqn:Est; cbn [negb]; [|exact Dm].
  destruct (pledges s1 !! d) as [p|] eqn:Ep; cbn [negb]; [|exact Dm].
  destruct (np_vthreshold (nparams s1) <=? pl_total p) eqn:Et; cbn [negb]; [|exact Dm].
  destruct (check_share s1 d val sub) eqn:Ec; [|exact Dm].
  assert (Hok : hook_ok s1 val sub d n).
  { split; [apply Z.eqb_eq, Est|]. split; [|exact Ec]. exists p. split; [exact Ep|]. apply Z.leb_le, Et. }
  destruct (n_role n =? 0).
  - rewrite (set_role_some _ _ _ _ _ En). eexists. split; [reflexivity|]. apply vs_promote; assumption.
  - apply Keep'. intros _ _. exact Hok.
Qed.

Lemma vs_step_Rel val sub d s1 s2 : vs_step val sub d s1 s2 -> Rel val sub s1 s2.
Proof.
  intros [_|n En|n En Hok].
  - apply Rel_refl.
  - apply (Rel_set_node _ _ _ _ n); [exact En|reflexivity|discriminate].
  - apply (Rel_set_node _ _ _ _ n); [exact En|reflexivity|]. intros _. split; [reflexivity|exact Hok].
Qed.

Lemma vs_step_Q val sub d s1 s2 : vs_step val sub d s1 s2 ->
  forall d', Qsup val sub s1 d' \/ d' = d -> Qsup val sub s2 d'.
Proof.
  intros St d' Hd. destruct (decide (d' = d)) as [->|Hne].
  - destruct St as [Q|n En|n En Hok]; [exact Q| |]; intros n' Hn'; simpl in Hn'; rewrite lookup_insert in Hn';
      injection Hn' as <-.
    + discriminate.
    + intros _ _. exact Hok.
  - destruct Hd as [Q|]; [|contradiction]. destruct (vs_step_Rel _ _ _ _ _ St) as [F _].
    apply (Qsup_frame _ _ s1); [exact F| |exact Q].
    destruct St; [reflexivity| |]; simpl; apply lookup_insert_ne; congruence.
Qed.

Lemma vs_loop_spec val acc br sub l : forall s1, exists s2,
  forM l (vs_body val acc br sub) s1 = Ok tt s2 /\ Rel val sub s1 s2 /\
  forall d, Qsup val sub s1 d \/ (exists kv, kv ∈ l /\ d = dl_del kv.2) -> Qsup val sub s2 d.
Proof.
  induction l as [|kv l IH]; intros s1; simpl.
  - exists s1. split; [reflexivity|]. split; [apply Rel_refl|]. intros d [Q|(kv & I & _)]; [exact Q|inversion I].
  - destruct (vs_body_step val acc br sub kv s1) as (s2 & E & St). unfold bind at 1. rewrite E.
    destruct (IH s2) as (s3 & E3 & R3 & Q3). exists s3. split; [exact E3|]. split.
    + eapply Rel_trans; [eapply vs_step_Rel, St|exact R3].
    + intros d Hd. apply Q3. destruct Hd as [Q|(kv' & [->|I]%elem_of_cons & ->)].
      * left. apply (vs_step_Q _ _ _ _ _ St). left. exact Q.
      * left. apply (vs_step_Q _ _ _ _ _ St). right. reflexivity.
      * right. eauto.
Qed.

Lemma pg_zero_eq s : (if pg s =? 0 then s else s <| pg := 0 |>) = s <| pg := 0 |>.
Proof. destruct (pg s =? 0) eqn:E; [|reflexivity]. apply Z.eqb_eq in E. destruct s (* no eta for [State] *); simpl in *; subst; reflexivity. Qed.

Lemma verify_super_Ok val acc br s u s' : verify_super val acc br s = Ok u s' ->
  exists sub, vs_sub s val acc br = Some sub /\ Rel val sub s s' /\ pg s' = 0 /\
    forall k x, dels s !! k = Some x -> dl_val x = val -> Qsup val sub s' (dl_del x).
Proof.
  unfold verify_super. unfold bind at 1, get. intros H. apply bind_ok in H as (sub & sx & Hs & H).
  assert (Hs' : vs_sub s val acc br = Some sub /\ sx = s).
  { unfold vs_sub. destruct acc as [a|]; [|inversion Hs; auto].
    destruct (pg s =? 0); [inversion Hs; auto|].
    destruct (del_shares s a val) as [cur|]; [|discriminate].
    destruct (cur <? pg s); [inversion Hs; auto|]. destruct br; inversion Hs; auto. }
  destruct Hs' as [Hsub ->]. exists sub. split; [exact Hsub|].
  apply bind_ok in H as ([] & s2 & Hl & H).
  change (forM (filter (fun kv : string * Delegation => String.eqb (dl_val kv.2) val) (sorted_items (dels s)))
               (vs_body val acc br sub) s = Ok tt s2) in Hl.
  destruct (vs_loop_spec val acc br sub (filter (fun kv : string * Delegation => String.eqb (dl_val kv.2) val) (sorted_items (dels s))) s)
    as (s2' & E & R & Q).
  rewrite E in Hl. injection Hl as ->. unfold modify in H. injection H as H. subst s'. rewrite pg_zero_eq.
  split; [exact R|]. split; [reflexivity|]. intros k x Hk Hv.
  apply (Q (dl_del x)). right. exists (k, x). split; [|reflexivity].
  apply elem_of_list_filter. split; [|apply elem_of_sorted_items, Hk].
  simpl. apply Is_true_true, String.eqb_eq, Hv.
Qed.

Lemma verify_super_pg val acc br s u s' : verify_super val acc br s = Ok u s' -> pg s' = 0.
Proof. intros H. apply verify_super_Ok in H as (sub & _ & _ & H & _). exact H. Qed.

(* whether the last event of the list that writes the process variable is a hook (which clears it);
   [c]: it is clear beforehand *)
Fixpoint ends_clear (evs : list StEvent) (c : bool) : bool :=
  match evs with
  | [] => c
  | e :: r => ends_clear r match e with
                           | EvBeforeShares _ _ => false
                           | EvBeforeRemoved _ _ | EvAfterModified _ _ | EvValHook _ | EvPgZero => true
                           | _ => c
                           end
  end.

Lemma staking_tx_no_residue evs : forall c s s', (c = true -> pg s = 0) ->
  staking_tx evs s = Ok tt s' -> ends_clear evs c = true -> pg s' = 0.
Proof.
  induction evs as [|e evs IH]; intros c s s' Hc H Hev.
  - apply staking_tx_nil in H as ->. exact (Hc Hev).
  - apply staking_tx_cons in H as (s1 & E & H). refine (IH _ s1 s' _ H Hev). clear IH H Hev.
    (* the table writes keep [pg]; after the first hook, or a failure, nothing is claimed; the other hooks clear it *)
    destruct e; cbn [st_event] in E; try (injection E as <-; exact Hc); try discriminate; intros _.
    1-3: exact (verify_super_pg _ _ _ _ _ _ E).
    injection E as <-. reflexivity.
Qed.

Theorem delegate_no_residue : forall cx s del val key existed amount v' d' s' d,
  step cx s (OStaking (ev_delegate del val key existed amount v' d')) = (s', OutTx COk d) -> pg s' = 0.
Proof.
  intros cx s del val key existed amount v' d' s' d H%step_staking_Ok.
  apply (staking_tx_no_residue _ false _ _ ltac:(discriminate) H). destruct existed; reflexivity.
Qed.
Print Assumptions delegate_no_residue.

Theorem unbond_partial_no_residue : forall cx s del val key d' v' s' d,
  step cx s (OStaking (ev_unbond_partial del val key d' v')) = (s', OutTx COk d) -> pg s' = 0.
Proof.
  intros cx s del val key d' v' s' d H%step_staking_Ok.
  exact (staking_tx_no_residue _ false _ _ ltac:(discriminate) H eq_refl).
Qed.
Print Assumptions unbond_partial_no_residue.

Theorem unbond_full_no_residue : forall cx s del val key v' s' d,
  step cx s (OStaking (ev_unbond_full del val key v')) = (s', OutTx COk d) -> pg s' = 0.
Proof.
  intros cx s del val key v' s' d H%step_staking_Ok.
  exact (staking_tx_no_residue _ false _ _ ltac:(discriminate) H eq_refl).
Qed.
Print Assumptions unbond_full_no_residue.

Theorem restart_id : forall s, pg s = 0 -> restart s = s.
Proof. intros s H. unfold restart. destruct s (* no eta for [State] *); simpl in *; subst; reflexivity. Qed.
Print Assumptions restart_id.
Theorem restart_equiv : forall tr s, pg s = 0 -> run tr (restart s) = run tr s.
Proof. intros tr s H. rewrite restart_id by exact H. reflexivity. Qed.
Print Assumptions restart_equiv.

Lemma delegate_fails_Err s del val sh : del_shares s del val = Some sh ->
  staking_tx (ev_delegate_fails del val) s = Err "staking error" (s <| pg := sh |>).
Proof. intros H. unfold ev_delegate_fails, staking_tx. simpl forM. unfold bind, get. rewrite H. reflexivity. Qed.

Theorem failed_delegate_residue : forall cx s del val sh, del_shares s del val = Some sh ->
  fst (step cx s (OStaking (ev_delegate_fails del val))) = s <| pg := sh |>.
Proof. intros cx s del val sh H. unfold step, tx_of, deliver. rewrite (delegate_fails_Err _ _ _ _ H). reflexivity. Qed.
Print Assumptions failed_delegate_residue.

(* the same residue through a gas simulation of the (successful or failing) transaction's first hook *)
Theorem simulate_residue : forall cx s del val sh, del_shares s del val = Some sh ->
  fst (step cx s (OSimulate (ev_delegate_fails del val))) = s <| pg := sh |>.
Proof. intros cx s del val sh H. unfold step. rewrite (delegate_fails_Err _ _ _ _ H). reflexivity. Qed.
Print Assumptions simulate_residue.

(** * The residue changes consensus results (finding D10) *)
Definition d10_params : NParams :=
  mkNParams 1000 1000000000 500000000000000000 32000000 2000 100000000000000000 "" 1 10000 5000000 1800.
Definition d10_nodes : gmap string Node := <["N" := mkNode "" 10000 15 1 [] 0 "V"]> ∅.
Definition d10_pledges : gmap string Pledge := <["N" := mkPledge 6 0 0 0 6000000 0]> ∅.
Definition d10_vals : gmap string Validator := <["V" := mkVal (1110000 * 10^18)%Z 1110000 3]> ∅.
Definition d10_dels : gmap string Delegation :=
  <["1" := mkDel "N" "V" (110000 * 10^18)%Z]> (<["2" := mkDel "OP" "V" (1000000 * 10^18)%Z]> ∅).
(* node N holds 110 000 of 1 110 000 shares of V (9.9 %, threshold 10 %); [g] is the process variable *)
Definition d10_state (g : Z) : State :=
  mkState did_empty d10_nodes d10_pledges ∅ (Some (mkPool 0 0 0 0 0 0 0 0)) None ∅ ∅ ∅ d10_params ∅ 1 ∅ 0 ∅ ∅ ∅ ∅ ∅ ∅ ∅ 0
          d10_vals d10_dels g.
(* residue of the operator's failed delegation *)
Definition d10_residue : Z := (1000000 * 10^18)%Z.
(* a third party's fresh delegation of 1 000 shares *)
Definition d10_evs : list StEvent :=
  ev_delegate "T" "V" "3" false 1000 (mkVal (1111000 * 10^18)%Z 1111000 3) (mkDel "T" "V" (1000 * 10^18)%Z).
Definition d10_cx : Ctx := {| cx_height := 2; cx_chain := "sao"; cx_time := 0; cx_seed := 0 |}.

Lemma d10_residue_origin :
  fst (step d10_cx (d10_state 0) (OStaking (ev_delegate_fails "OP" "V"))) = d10_state d10_residue.
Proof. rewrite (failed_delegate_residue _ _ _ _ d10_residue); [reflexivity|]. vm_compute. reflexivity. Qed.

(* the third party's delegation on the state with the residue: N becomes super and fails the share check *)
Lemma d10_run_with_residue : let r := step d10_cx (d10_state d10_residue) (OStaking d10_evs) in
  snd r = OutTx COk "" /\ nodes (fst r) !! "N" = Some (mkNode "" 10000 15 1 [] 1 "V") /\ check_share (fst r) "N" "V" 0 = false.
Proof. vm_compute. auto. Qed.

Lemma d10_role_with_residue :
  n_role <$> nodes (fst (step d10_cx (d10_state d10_residue) (OStaking d10_evs))) !! "N" = Some 1.
Proof. destruct d10_run_with_residue as (_ & -> & _). reflexivity. Qed.
Lemma d10_role_without_residue :
  n_role <$> nodes (fst (step d10_cx (restart (d10_state d10_residue)) (OStaking d10_evs))) !! "N" = Some 0.
Proof. vm_compute. reflexivity. Qed.

Theorem restart_equiv_refuted : exists cx s op, pg s <> 0 /\ nodes (fst (step cx (restart s) op)) <> nodes (fst (step cx s op)).
Proof.
  exists d10_cx, (d10_state d10_residue), (OStaking d10_evs). split.
  - vm_compute. discriminate.
  - intros E. pose proof d10_role_with_residue as H1. pose proof d10_role_without_residue as H0.
    rewrite E in H0. rewrite H1 in H0. discriminate.
Qed.
Print Assumptions restart_equiv_refuted.

Theorem promotion_with_residue_refuted : exists cx s evs s' d addr n n',
  step cx s (OStaking evs) = (s', OutTx COk d) /\ nodes s !! addr = Some n /\ n_role n = 0 /\
  nodes s' !! addr = Some n' /\ n_role n' = 1 /\ ~ super_ok s' addr n'.
Proof.
  destruct d10_run_with_residue as (E & En & Ec).
  destruct (step _ _ _) as [s' o] eqn:Es. cbn [fst snd] in *. subst o.
  exists d10_cx, (d10_state d10_residue), d10_evs, s', "", "N", (mkNode "" 10000 15 1 [] 0 "V"), (mkNode "" 10000 15 1 [] 1 "V").
  split; [exact Es|]. split; [vm_compute; reflexivity|]. split; [reflexivity|]. split; [exact En|]. split; [reflexivity|].
  intros (_ & _ & H). cbn [n_val] in H. rewrite Ec in H. discriminate.
Qed.
Print Assumptions promotion_with_residue_refuted.

(* end to end from a residue-free state: the operator's failing delegation, then the third party's
   delegation. A node that restarts between the two transactions computes a different node table
   than one that does not (same committed state, same transactions). *)
Theorem d10_crash_restart_divergence :
  let tr1 := [(d10_cx, OStaking (ev_delegate_fails "OP" "V"))] in
  let tr2 := [(d10_cx, OStaking d10_evs)] in
  pg (d10_state 0) = 0 /\
  n_role <$> nodes (run tr2 (run tr1 (d10_state 0))) !! "N" = Some 1 /\
  n_role <$> nodes (run tr2 (restart (run tr1 (d10_state 0)))) !! "N" = Some 0.
Proof.
  cbv zeta. unfold run. cbn [fold_left fst snd]. rewrite d10_residue_origin.
  split; [reflexivity|]. split; [exact d10_role_with_residue|exact d10_role_without_residue].
Qed.
Print Assumptions d10_crash_restart_divergence.

(** * Promotion to the super role is sound when there is no residue (C20) *)

(** ** by the node's own messages *)
Lemma check_node_share_spec s n c n' b : check_node_share s n c = (n', b) ->
  (b = false /\ n' = n) \/
  (b = true /\ n_status n' = n_status n /\ n_role n' = 1 /\ check_share s c (n_val n') 0 = true).
Proof.
  unfold check_node_share. destruct (negb (String.eqb (n_val n) "")).
  - destruct (check_share s c (n_val n) 0) eqn:E; intros H; inversion H; subst; [right|left]; simpl; auto.
  - destruct (filter _ _) as [|kv r] eqn:F; intros H; inversion H; subst; [left; auto|].
    right. apply filter_head_elem in F as [F _]. apply Is_true_true in F.
    apply andb_true_iff in F as [_ F]. simpl. auto.
Qed.

Lemma own_promotion_sound s s' c n n' b p : check_node_share s n c = (n', b) -> n_role n = 0 -> n_role n' = 1 ->
  Z.land (n_status n) STATUS_SUPER_REQ = STATUS_SUPER_REQ ->
  pledges s' !! c = Some p -> np_vthreshold (nparams s') <= pl_total p ->
  dels s' = dels s -> vals s' = vals s -> nparams s' = nparams s -> super_ok s' c n'.
Proof.
  intros [[_ ->]|(_ & Hs & _ & Hc)]%check_node_share_spec Hr Hr' Hl Hp Ht E1 E2 E3; [congruence|].
  split; [rewrite Hs; exact Hl|]. split; [eauto|]. rewrite <- Hc. apply check_share_frame; assumption.
Qed.

(* the node record ResetNode builds before the share check: a copy of the let-chain [n1]..[n5] of [node_reset] in
   Model/Node.v, convertible with it ([node_reset_Ok] closes by [reflexivity]) *)
Definition reset_node (cx : Ctx) (m : ResetMsg) (n : Node) : Node :=
  let n1 := if negb (rs_status m =? 0) && negb (n_status n =? rs_status m) then n <| n_status := rs_status m |> else n in
  let n2 := if negb (String.eqb (rs_peer m) "") && negb (String.eqb (n_peer n1) (rs_peer m)) then n1 <| n_peer := rs_peer m |> else n1 in
  let chg_val := negb (String.eqb (rs_validator m) "") && negb (String.eqb (n_val n2) (rs_validator m)) in
  let n3 := if chg_val then n2 <| n_val := rs_validator m |> else n2 in
  let n4 := match rs_tx m with [] => n3 | l => n3 <| n_tx := l |> end in
  n4 <| n_alive := cx_height cx |> <| n_role := 0 |>.

Lemma reset_node_status cx m n : Z.land (rs_status m) STATUS_SUPER_REQ = STATUS_SUPER_REQ ->
  n_status (reset_node cx m n) = rs_status m.
Proof.
  intros Hl. unfold reset_node. cbv zeta.
  set (n1 := if negb (rs_status m =? 0) && negb (n_status n =? rs_status m) then n <| n_status := rs_status m |> else n).
  assert (S1 : n_status n1 = rs_status m).
  { subst n1. destruct (rs_status m =? 0) eqn:E0; simpl.
    - apply Z.eqb_eq in E0. rewrite E0 in Hl. discriminate.
    - destruct (n_status n =? rs_status m) eqn:E1; simpl; [apply Z.eqb_eq; exact E1|reflexivity]. }
  clearbody n1. simpl.
  destruct (rs_tx m); destruct (negb (String.eqb (rs_validator m) "") && _); destruct (negb (String.eqb (rs_peer m) "") && _);
    simpl; exact S1.
Qed.

Lemma node_reset_Ok cx m s u s' : node_reset cx m s = Ok u s' ->
  exists n, nodes s !! rs_creator m = Some n /\
    s' = s <| nodes ::= <[rs_creator m :=
           if Z.land (rs_status m) STATUS_SUPER_REQ =? STATUS_SUPER_REQ then
             match pledges s !! rs_creator m with
             | Some p => if np_vthreshold (nparams s) <=? pl_total p
                         then fst (check_node_share s (reset_node cx m n) (rs_creator m)) else reset_node cx m n
             | None => reset_node cx m n
             end
           else reset_node cx m n]> |>.
Proof.
  unfold node_reset. unfold bind, get. destruct (nodes s !! rs_creator m) as [n|]; [|discriminate].
  cbv zeta.
  match goal with |- (if ?b then _ else _) _ = _ -> _ => destruct b; [discriminate|] end.
  match goal with |- (if ?b then _ else _) _ = _ -> _ => destruct b; [discriminate|] end.
  unfold modify. intros H. inversion H. exists n. split; reflexivity.
Qed.

Theorem reset_promotion_sound : forall cx s m s' d n', step cx s (ONodeReset m) = (s', OutTx COk d) ->
  nodes s' !! rs_creator m = Some n' -> n_role n' = 1 -> super_ok s' (rs_creator m) n'.
Proof.
  intros cx s m s' d n' H Hn' Hr.
  apply (step_tx_ok cx s _ (node_reset cx m)) in H; [|reflexivity].
  apply node_reset_Ok in H as (n & En & ->). simpl in Hn'. rewrite lookup_insert in Hn'. injection Hn' as E.
  (* the record built from the message has role 0: the role 1 can only come from the share check *)
  assert (Base : reset_node cx m n <> n') by (intros <-; discriminate Hr).
  destruct (Z.land (rs_status m) STATUS_SUPER_REQ =? STATUS_SUPER_REQ) eqn:El; [|contradiction].
  apply Z.eqb_eq in El.
  destruct (pledges s !! rs_creator m) as [p|] eqn:Ep; [|contradiction].
  destruct (np_vthreshold (nparams s) <=? pl_total p) eqn:Et; [|contradiction].
  destruct (check_node_share s (reset_node cx m n) (rs_creator m)) as [n'' b] eqn:Ec. simpl in E. subst n''.
  apply (own_promotion_sound s _ _ _ _ _ p Ec); try reflexivity; try assumption.
  - rewrite reset_node_status; exact El.
  - apply Z.leb_le, Et.
Qed.
Print Assumptions reset_promotion_sound.

Lemma send_strict_Ok f t a s u s1 : send_strict f t a s = Ok u s1 -> s1 = move f t a s.
Proof.
  unfold send_strict. destruct (_ <=? _); [discriminate|]. destruct (_ <? _); [discriminate|].
  intros H; inversion H; reflexivity.
Qed.

Theorem add_vstorage_promotion_sound : forall cx s c sz s' d n n', step cx s (OAddVstorage c sz) = (s', OutTx COk d) ->
  nodes s !! c = Some n -> n_role n = 0 -> nodes s' !! c = Some n' -> n_role n' = 1 -> super_ok s' c n'.
Proof.
  intros cx s c sz s' d n n' H Hn Hr Hn' Hr'.
  apply (step_tx_ok cx s _ (add_vstorage c sz)) in H; [|reflexivity].
  unfold add_vstorage in H. unfold bind at 1, get in H. rewrite Hn in H.
  destruct (pool s) as [po|]; [|discriminate]. cbv zeta in H.
  match type of H with (if ?b then _ else _) _ = _ => destruct b; [discriminate|] end.
  match type of H with context [np_vthreshold (nparams s) <=? pl_total ?p] => set (p3 := p) in H end.
  apply bind_ok in H as ([] & s1 & ->%send_strict_Ok & H). set (s1 := move _ _ _ s) in H.
  assert (Hn1 : nodes s1 !! c = Some n) by exact Hn.
  apply bind_ok in H as ([] & s2 & Hmid & H). injection H as H. subst s'.
  (* unless the share check promotes it, the node stays as it was *)
  assert (Stay : s2 <> s1).
  { intros ->. change (nodes s1 !! c = Some n') in Hn'. congruence. }
  destruct (np_vthreshold (nparams s) <=? pl_total p3) eqn:Et; [|injection Hmid as E; congruence].
  unfold bind at 1, get in Hmid. rewrite Hn1 in Hmid.
  destruct (Z.land (n_status n) STATUS_SUPER_REQ =? STATUS_SUPER_REQ) eqn:El;
    [|rewrite andb_false_r in Hmid; injection Hmid as E; congruence].
  rewrite andb_true_r in Hmid. destruct (n_role n =? 0); [|injection Hmid as E; congruence].
  destruct (check_node_share s1 n c) as [n'' ok] eqn:Ecs.
  destruct ok; [|injection Hmid as E; congruence].
  injection Hmid as <-. simpl in Hn'. rewrite lookup_insert in Hn'. injection Hn' as ->.
  apply (own_promotion_sound s1 _ _ _ _ _ p3 Ecs Hr Hr'); try reflexivity.
  - apply Z.eqb_eq, El.
  - apply lookup_insert.
  - apply Z.leb_le, Et.
Qed.
Print Assumptions add_vstorage_promotion_sound.

(* The handler demotes only a role that is exactly 1 and leaves any other value alone: that the role is 0
   afterwards holds only if it was 0 or 1 beforehand; see [remove_vstorage_demotes_refuted]. *)
Lemma remove_vstorage_demotes_gen : forall cx s c sz s' d n' p', step cx s (ORemoveVstorage c sz) = (s', OutTx COk d) ->
  nodes s' !! c = Some n' -> pledges s' !! c = Some p' -> pl_total p' < np_vthreshold (nparams s') ->
  exists n, nodes s !! c = Some n /\ (n' = n <| n_role := 0 |> \/ (n' = n /\ n_role n <> 1)).
Proof.
  intros cx s c sz s' d n' p' H Hn' Hp' Hlt.
  pose proof (step_keeps_nparams cx s (ORemoveVstorage c sz)) as Fp. rewrite H in Fp. cbn [fst] in Fp.
  rewrite Fp in Hlt. clear Fp.
  apply (step_tx_ok cx s _ (remove_vstorage c sz)) in H; [|reflexivity].
  unfold remove_vstorage in H. unfold bind at 1, get in H.
  destruct (nodes s !! c) as [n|] eqn:Hn; [|discriminate].
  destruct (pool s) as [po|]; [|discriminate].
  destruct (pledges s !! c) as [p|]; [|discriminate].
  cbv zeta in H.
  do 3 match type of H with (if ?b then _ else _) _ = _ => destruct b; [discriminate|] end.
  apply bind_ok in H as (sp' & s0 & Hcs & H).
  assert (s0 = s) as -> by (unfold coin_sub in Hcs; destruct (_ <? 0); [discriminate|]; injection Hcs; auto).
  match type of H with context [pl_total ?p <? np_vthreshold (nparams s)] => set (p3 := p) in H end.
  apply bind_ok in H as ([] & s1 & ->%send_strict_Ok & H). set (s1 := move _ _ _ s) in H.
  apply bind_ok in H as ([] & s2 & Hmid & H). injection H as H. subst s'.
  change (<[c := p3]> (pledges s2) !! c = Some p') in Hp'. rewrite lookup_insert in Hp'. injection Hp' as <-.
  change (nodes s2 !! c = Some n') in Hn'.
  apply Z.ltb_lt in Hlt. rewrite Hlt in Hmid.
  unfold bind at 1, get in Hmid. change (nodes s1 !! c) with (nodes s !! c) in Hmid. rewrite Hn in Hmid.
  exists n. split; [reflexivity|].
  destruct (n_role n =? 1) eqn:Er; injection Hmid as <-.
  - left. change (<[c := n <| n_role := 0 |>]> (nodes s1) !! c = Some n') in Hn'. rewrite lookup_insert in Hn'.
    injection Hn' as <-. reflexivity.
  - right. change (nodes s !! c = Some n') in Hn'. rewrite Hn in Hn'. injection Hn' as <-.
    split; [reflexivity|]. apply Z.eqb_neq, Er.
Qed.

Theorem remove_vstorage_demotes_partial : forall cx s c sz s' d n' p', step cx s (ORemoveVstorage c sz) = (s', OutTx COk d) ->
  nodes s' !! c = Some n' -> pledges s' !! c = Some p' -> pl_total p' < np_vthreshold (nparams s') -> n_role n' <> 1.
Proof.
  intros cx s c sz s' d n' p' H Hn' Hp' Hlt.
  destruct (remove_vstorage_demotes_gen _ _ _ _ _ _ _ _ H Hn' Hp' Hlt) as (n & _ & [->|[-> Hr]]).
  - simpl. discriminate.
  - exact Hr.
Qed.
Print Assumptions remove_vstorage_demotes_partial.

(* the first hypothesis is an invariant of every handler: roles are only ever set to 0 or 1 *)
Theorem remove_vstorage_demotes_wf : forall cx s c sz s' d n' p',
  (forall n, nodes s !! c = Some n -> n_role n = 0 \/ n_role n = 1) ->
  step cx s (ORemoveVstorage c sz) = (s', OutTx COk d) ->
  nodes s' !! c = Some n' -> pledges s' !! c = Some p' -> pl_total p' < np_vthreshold (nparams s') -> n_role n' = 0.
Proof.
  intros cx s c sz s' d n' p' Hwf H Hn' Hp' Hlt.
  destruct (remove_vstorage_demotes_gen _ _ _ _ _ _ _ _ H Hn' Hp' Hlt) as (n & Hn & [->|[-> Hr]]).
  - reflexivity.
  - destruct (Hwf n Hn) as [E|E]; [exact E|contradiction].
Qed.
Print Assumptions remove_vstorage_demotes_wf.

(* [n_role n' = 0] fails on a state whose role field holds a value other than 0 or 1
   (no handler writes such a value: this is about the statement's domain, not about the chain) *)
Definition rv_state : State :=
  mkState did_empty (<["N" := mkNode "" 10000 15 1 [] 2 "V"]> ∅) d10_pledges ∅ (Some (mkPool 6 0 0 0 0 0 6000000 0)) None ∅ ∅ ∅
          d10_params ∅ 1 ∅ 0 ∅ ∅ ∅ ∅ ∅ ∅ (<["module:node" := 6]> ∅) 6 d10_vals d10_dels 0.
Lemma rv_run : let r := step d10_cx rv_state (ORemoveVstorage "N" 2000000) in
  snd r = OutTx COk "" /\ nodes (fst r) !! "N" = Some (mkNode "" 10000 15 1 [] 2 "V") /\
  pledges (fst r) !! "N" = Some (mkPledge 4 0 0 0 4000000 0) /\ np_vthreshold (nparams (fst r)) = 5000000.
Proof. vm_compute. auto. Qed.

Theorem remove_vstorage_demotes_refuted : exists cx s c sz s' d n' p',
  step cx s (ORemoveVstorage c sz) = (s', OutTx COk d) /\
  nodes s' !! c = Some n' /\ pledges s' !! c = Some p' /\ pl_total p' < np_vthreshold (nparams s') /\ n_role n' <> 0.
Proof.
  destruct rv_run as (E & En & Ep & Et).
  destruct (step _ _ _) as [s' o] eqn:Es. cbn [fst snd] in *. subst o.
  exists d10_cx, rv_state, "N", 2000000, s', "", (mkNode "" 10000 15 1 [] 2 "V"), (mkPledge 4 0 0 0 4000000 0).
  split; [exact Es|]. split; [exact En|]. split; [exact Ep|]. split; [rewrite Et; reflexivity|]. discriminate.
Qed.
Print Assumptions remove_vstorage_demotes_refuted.

(** ** by the staking hooks *)
Lemma super_ok_hook s addr n : super_ok s addr n <-> hook_ok s (n_val n) 0 addr n.
Proof. reflexivity. Qed.

Lemma find_del_unique s del val key d' :
  dels s !! key = Some d' -> dl_del d' = del -> dl_val d' = val ->
  (forall k x, dels s !! k = Some x -> dl_del x = del -> dl_val x = val -> k = key) ->
  find_del s del val = Some d'.
Proof.
  intros Hk Hd Hv Hu. unfold find_del.
  destruct (filter _ _) as [|kv r] eqn:F.
  - exfalso.
    assert (I : (key, d') ∈ filter (fun kv : string * Delegation => String.eqb (dl_del kv.2) del && String.eqb (dl_val kv.2) val)
                                   (sorted_items (dels s))).
    { apply elem_of_list_filter. split; [|apply elem_of_sorted_items; exact Hk].
      simpl. apply Is_true_true. apply andb_true_iff. split; apply String.eqb_eq; assumption. }
    rewrite F in I. inversion I.
  - apply filter_head_elem in F as [P I]. destruct kv as [k x]. apply elem_of_sorted_items in I.
    simpl in P. apply Is_true_true in P. apply andb_true_iff in P. destruct P as [P1%String.eqb_eq P2%String.eqb_eq].
    assert (k = key) by (eapply Hu; eassumption). subst k. simpl. congruence.
Qed.

Lemma find_del_inserted s0 s del val key d' :
  dels s = <[key := d']> (dels s0) -> dl_del d' = del -> dl_val d' = val ->
  (forall k x, dels s0 !! k = Some x -> dl_del x = del -> dl_val x = val -> k = key) ->
  find_del s del val = Some d'.
Proof.
  intros D Hd Hv Hu. apply (find_del_unique s del val key d'); try assumption; rewrite D.
  - apply lookup_insert.
  - intros k x Hk. destruct (decide (k = key)) as [E|E]; [auto|].
    rewrite lookup_insert_ne in Hk by congruence. eauto.
Qed.

Lemma verify_super_promoted val acc br s s' addr n n' : verify_super val acc br s = Ok tt s' ->
  nodes s !! addr = Some n -> n_role n = 0 -> nodes s' !! addr = Some n' -> n_role n' = 1 ->
  exists sub, vs_sub s val acc br = Some sub /\ same_staking s s' /\ n_val n' = val /\ hook_ok s' val sub addr n'.
Proof.
  intros (sub & Hsub & [F N] & _)%verify_super_Ok Hn Hr Hn' Hr'. exists sub. split; [exact Hsub|]. split; [exact F|].
  destruct (N _ _ Hn') as (n0 & H0 & _ & R). rewrite Hn in H0. injection H0 as <-.
  destruct (R Hr') as [->|[Hv Hok]]; [congruence|]. split; [exact Hv|]. apply (hook_ok_frame s s'); assumption.
Qed.

Lemma hook_ok_lowered s val v v' sub addr n : vals s !! val = Some v -> v_shares v' = v_shares v - sub ->
  hook_ok s val sub addr n -> hook_ok (s <| vals ::= <[val := v']> |>) val 0 addr n.
Proof.
  intros Hv Hvs (Hs & Hp & Hc). split; [exact Hs|]. split; [exact Hp|].
  revert Hc. unfold check_share. rewrite (find_del_frame s (s <| vals ::= <[val := v']> |>)) by reflexivity.
  destruct (find_del s addr val) as [dd|]; [|discriminate]. rewrite Hv.
  replace (vals (s <| vals ::= <[val := v']> |>) !! val) with (Some v') by (symmetry; apply lookup_insert).
  change (nparams (s <| vals ::= <[val := v']> |>)) with (nparams s). rewrite Hvs.
  destruct (v_shares v =? sub) eqn:E; [discriminate|]. apply Z.eqb_neq in E.
  destruct (v_shares v - sub =? 0) eqn:E'; [apply Z.eqb_eq in E'; lia|]. rewrite Z.sub_0_r. auto.
Qed.

(* the state in which Delegate's second hook runs, and the amount it subtracts (none). [pg s] matters
   only if the delegation is new: otherwise the first hook overwrites it. *)
Lemma delegate_hook_state : forall s del val key existed amount v' d' s',
  (existed = false -> pg s = 0) ->
  staking_tx (ev_delegate del val key existed amount v' d') s = Ok tt s' ->
  dl_del d' = del -> dl_val d' = val ->
  (forall k x, dels s !! k = Some x -> dl_del x = del -> dl_val x = val -> k = key) ->
  (forall old, del_shares s del val = Some old -> old <= dl_shares d') ->
  exists s3, nodes s3 = nodes s /\
             verify_super val (Some del) false s3 = Ok tt s' /\ vs_sub s3 val (Some del) false = Some 0.
Proof.
  intros s del val key existed amount v' d' s' Hpg H Hd Hv Hu Hmono. unfold ev_delegate in H.
  assert (exists g, (g = 0 \/ del_shares s del val = Some g) /\
            staking_tx [EvBal del (- amount); EvSetVal val v'; EvSetDel key d'; EvAfterModified del val] (s <| pg := g |>) = Ok tt s')
    as (g & Hg & H0).
  { destruct existed; simpl in H.
    - apply staking_tx_cons in H as (s0 & (sh & Hsh & ->)%ev_before_shares_Ok & H). eauto.
    - exists (pg s). split; [left; auto|]. destruct s (* no eta for [State] *); exact H. }
  apply staking_tx_cons in H0 as (s1 & [= E1] & H0). apply staking_tx_cons in H0 as (s2 & [= E2] & H0).
  apply staking_tx_cons in H0 as (s3 & [= E3] & H0). apply staking_tx_cons in H0 as (s4 & E4 & ->%staking_tx_nil).
  exists s3. split; [subst s3 s2 s1; reflexivity|]. split; [exact E4|].
  unfold vs_sub. replace (pg s3) with g by (subst s3 s2 s1; reflexivity).
  destruct (g =? 0) eqn:Eg; [reflexivity|]. destruct Hg as [->|Hg]; [discriminate|].
  unfold del_shares. rewrite (find_del_inserted s s3 del val key d') by (assumption || (subst s3 s2 s1; reflexivity)).
  apply Hmono, Z.ltb_ge in Hg. rewrite Hg. reflexivity.
Qed.

(* Delegate: every node the transaction promotes satisfies the conditions of the super role in
   the final state, given that the delegator's shares do not decrease (the last hypothesis on [d'];
   the SDK's Delegate only ever adds shares). Without it the statement is false: see
   [delegate_promotion_sound_refuted]. *)
Theorem delegate_promotion_sound_partial : forall cx s del val key existed amount v' d' s' d addr n n',
  pg s = 0 -> step cx s (OStaking (ev_delegate del val key existed amount v' d')) = (s', OutTx COk d) ->
  (existed = true <-> is_Some (del_shares s del val)) -> dl_del d' = del -> dl_val d' = val ->
  (* the key is the delegation's own key: no other record for (del,val) *)
  (forall k x, dels s !! k = Some x -> dl_del x = del -> dl_val x = val -> k = key) ->
  (* Delegate does not lower the delegator's shares *)
  (forall old, del_shares s del val = Some old -> old <= dl_shares d') ->
  nodes s !! addr = Some n -> n_role n = 0 -> nodes s' !! addr = Some n' -> n_role n' = 1 -> super_ok s' addr n'.
Proof.
  intros cx s del val key existed amount v' d' s' d addr n n' Hpg H _ Hd Hv Hu Hmono Hn Hr Hn' Hr'.
  apply step_staking_Ok in H.
  destruct (delegate_hook_state _ _ _ _ _ _ _ _ _ (fun _ => Hpg) H Hd Hv Hu Hmono) as (s3 & N3 & E & Hsub).
  rewrite <- N3 in Hn. destruct (verify_super_promoted _ _ _ _ _ _ _ _ E Hn Hr Hn' Hr') as (sub & Hsub' & _ & Hval & Hok).
  rewrite Hsub in Hsub'. injection Hsub' as <-. apply super_ok_hook. rewrite Hval. exact Hok.
Qed.
Print Assumptions delegate_promotion_sound_partial.

(* the statement without the hypothesis on the shares: an event list of Delegate's shape that lowers the
   delegator's shares (from 1 000 000 to 0, validator record unchanged) makes the hook subtract
   the difference and promotes N, which is below the threshold in the final state. The SDK never
   produces such a list from Delegate; the witness delimits the statement, it is not a chain defect. *)
Lemma d10_run_lowering :
  let r := step d10_cx (d10_state 0)
             (OStaking (ev_delegate "OP" "V" "2" true 0 (mkVal (1110000 * 10^18)%Z 1110000 3) (mkDel "OP" "V" 0))) in
  snd r = OutTx COk "" /\ nodes (fst r) !! "N" = Some (mkNode "" 10000 15 1 [] 1 "V") /\ check_share (fst r) "N" "V" 0 = false.
Proof. vm_compute. auto. Qed.

Theorem delegate_promotion_sound_refuted : exists cx s del val key existed amount v' d' s' d addr n n',
  pg s = 0 /\ step cx s (OStaking (ev_delegate del val key existed amount v' d')) = (s', OutTx COk d) /\
  (existed = true <-> is_Some (del_shares s del val)) /\ dl_del d' = del /\ dl_val d' = val /\
  (forall k x, dels s !! k = Some x -> dl_del x = del -> dl_val x = val -> k = key) /\
  nodes s !! addr = Some n /\ n_role n = 0 /\ nodes s' !! addr = Some n' /\ n_role n' = 1 /\ ~ super_ok s' addr n'.
Proof.
  destruct d10_run_lowering as (E & En & Ec).
  destruct (step _ _ _) as [s' o] eqn:Es. cbn [fst snd] in *. subst o.
  exists d10_cx, (d10_state 0), "OP", "V", "2", true, 0, (mkVal (1110000 * 10^18)%Z 1110000 3), (mkDel "OP" "V" 0),
    s', "", "N", (mkNode "" 10000 15 1 [] 0 "V"), (mkNode "" 10000 15 1 [] 1 "V").
  split; [reflexivity|]. split; [exact Es|].
  split; [split; [intros _; vm_compute; eauto|reflexivity]|].
  split; [reflexivity|]. split; [reflexivity|]. split.
  { intros k x Hk Hd Hv. destruct (decide (k = "2")) as [E2|E2]; [exact E2|exfalso].
    change (d10_dels !! k = Some x) in Hk. unfold d10_dels in Hk.
    destruct (decide (k = "1")) as [->|E1].
    - rewrite lookup_insert in Hk. injection Hk as <-. discriminate Hd.
    - rewrite !lookup_insert_ne, lookup_empty in Hk by congruence. discriminate. }
  split; [vm_compute; reflexivity|]. split; [reflexivity|]. split; [exact En|]. split; [reflexivity|].
  intros (_ & _ & H). cbn [n_val] in H. rewrite Ec in H. discriminate.
Qed.
Print Assumptions delegate_promotion_sound_refuted.

(* Unbond of a part of the delegation. The hook runs BEFORE the validator's shares are lowered,
   with sharesToSub = old - new delegation shares; the check it makes then (validator shares
   [v_shares v], minus sharesToSub) is the check in the final state (validator shares
   [v_shares v']). No assumption on [pg s]: the first hook overwrites it. The hypothesis
   [0 <= new] makes [old] non-zero (with [new < old]): the hook treats a stored 0 as "no
   BeforeDelegationSharesModified happened". *)
Theorem unbond_partial_promotion_sound : forall cx s del val key d' v' s' d v old new addr n n',
  step cx s (OStaking (ev_unbond_partial del val key d' v')) = (s', OutTx COk d) ->
  vals s !! val = Some v -> del_shares s del val = Some old ->
  dl_del d' = del -> dl_val d' = val -> dl_shares d' = new -> 0 <= new -> new < old ->
  v_shares v' = v_shares v - (old - new) ->
  (forall k x, dels s !! k = Some x -> dl_del x = del -> dl_val x = val -> k = key) ->
  nodes s !! addr = Some n -> n_role n = 0 -> nodes s' !! addr = Some n' -> n_role n' = 1 -> super_ok s' addr n'.
Proof.
  intros cx s del val key d' v' s' d v old new addr n n' H Hvl Hold Hd Hv Hnew Hpos Hlt Hvs Hu Hn Hr Hn' Hr'.
  apply step_staking_Ok in H. unfold ev_unbond_partial in H.
  apply staking_tx_cons in H as (s1 & (sh & Hsh & ->)%ev_before_shares_Ok & H).
  rewrite Hold in Hsh. injection Hsh as <-.
  apply staking_tx_cons in H as (s2 & [= E2] & H). apply staking_tx_cons in H as (s3 & E3 & H).
  apply staking_tx_cons in H as (s4 & [= E4] & ->%staking_tx_nil).
  assert (Hn2 : nodes s2 !! addr = Some n) by (subst s2; exact Hn).
  assert (Hn3 : nodes s3 !! addr = Some n') by (subst s4; exact Hn').
  destruct (verify_super_promoted val (Some del) false _ _ _ _ _ E3 Hn2 Hr Hn3 Hr') as (sub & Hsub & (_ & _ & Q3 & _) & Hval & Hok).
  assert (sub = old - new) as ->.
  { unfold vs_sub in Hsub. replace (pg s2) with old in Hsub by (subst s2; reflexivity).
    destruct (old =? 0) eqn:E0; [apply Z.eqb_eq in E0; lia|].
    unfold del_shares in Hsub. rewrite (find_del_inserted s s2 del val key d'), Hnew in Hsub
      by (assumption || (subst s2; reflexivity)).
    apply Z.ltb_lt in Hlt. rewrite Hlt in Hsub. injection Hsub as <-. reflexivity. }
  subst s4. apply super_ok_hook. rewrite Hval. apply (hook_ok_lowered s3 val v v' (old - new)); [|exact Hvs|exact Hok].
  rewrite Q3. subst s2. exact Hvl.
Qed.
Print Assumptions unbond_partial_promotion_sound.

(* after a Delegate without residue, EVERY delegator node of the validator that declares it and is
   super satisfies the conditions in the final state (not only the nodes this transaction promoted) *)
Theorem delegate_supers_sound : forall cx s del val key existed amount v' d' s' d k x n',
  pg s = 0 -> step cx s (OStaking (ev_delegate del val key existed amount v' d')) = (s', OutTx COk d) ->
  dl_del d' = del -> dl_val d' = val ->
  (forall k x, dels s !! k = Some x -> dl_del x = del -> dl_val x = val -> k = key) ->
  (forall old, del_shares s del val = Some old -> old <= dl_shares d') ->
  dels s' !! k = Some x -> dl_val x = val ->
  nodes s' !! dl_del x = Some n' -> n_val n' = val -> n_role n' = 1 -> super_ok s' (dl_del x) n'.
Proof.
  intros cx s del val key existed amount v' d' s' d k x n' Hpg H Hd Hv Hu Hmono Hk Hxv Hn' Hnv Hr.
  apply step_staking_Ok in H.
  destruct (delegate_hook_state _ _ _ _ _ _ _ _ _ (fun _ => Hpg) H Hd Hv Hu Hmono) as (s3 & _ & E & Hsub).
  apply verify_super_Ok in E as (sub & Hsub' & [(_ & _ & _ & Q4) _] & _ & Q). rewrite Hsub in Hsub'. injection Hsub' as <-.
  rewrite Q4 in Hk. apply super_ok_hook. rewrite Hnv. exact (Q k x Hk Hxv n' Hn' (or_intror Hnv) Hr).
Qed.
Print Assumptions delegate_supers_sound.

(** * The order in which a Go map of shard ids is ranged over does not matter *)
Definition del_all (ids : list Z) (m : gmap Z Shard) : gmap Z Shard := fold_left (fun m id => delete id m) ids m.

Lemma del_all_perm l l' : Permutation l l' -> forall m, del_all l m = del_all l' m.
Proof.
  unfold del_all. induction 1 as [|x l l' _ IH|x y l|l l' l'' _ IH1 _ IH2]; intros m; simpl.
  - reflexivity.
  - apply IH.
  - rewrite delete_commute. reflexivity.
  - rewrite IH1. apply IH2.
Qed.

Lemma del_all_absorb x l : inZ x l = true -> forall m, del_all l (delete x m) = del_all l m.
Proof.
  unfold del_all. induction l as [|y l IH]; simpl; [discriminate|]. intros H m.
  destruct (x =? y) eqn:E; simpl in H.
  - apply Z.eqb_eq in E. subst y. rewrite delete_idemp. reflexivity.
  - rewrite delete_commute. apply IH. exact H.
Qed.

Lemma del_all_dedup l : forall m, del_all (dedupZ l) m = del_all l m.
Proof.
  induction l as [|x l IH]; intros m; simpl; [reflexivity|].
  destruct (inZ x l) eqn:E.
  - rewrite IH. change (del_all (x :: l) m) with (del_all l (delete x m)). symmetry. apply del_all_absorb. exact E.
  - change (del_all (x :: dedupZ l) m) with (del_all (dedupZ l) (delete x m)). apply IH.
Qed.

Lemma remove_shards_del_all l s : remove_shards l s = Ok tt (s <| shards := del_all l (shards s) |>).
Proof. reflexivity. Qed.

Theorem remove_shards_perm : forall l l' , Permutation l l' -> forall s, remove_shards l s = remove_shards l' s.
Proof. intros l l' P s. rewrite !remove_shards_del_all, (del_all_perm l l' P). reflexivity. Qed.
Print Assumptions remove_shards_perm.

Theorem remove_shards_dedup : forall l s, remove_shards (dedupZ l) s = remove_shards l s.
Proof. intros l s. rewrite !remove_shards_del_all, del_all_dedup. reflexivity. Qed.
Print Assumptions remove_shards_dedup.
