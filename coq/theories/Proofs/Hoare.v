(* A small Hoare logic for the outcome monad: [ht P m Q E] -- from a state satisfying [P], a
   normal return of [m] with value [a] ends in a state satisfying [Q a] and an error return
   (whose writes are kept: block phases ignore errors) ends in a state satisfying [E].
   Panics and hangs are not constrained here (they are the subject of C02). Unlike [mok]
   (Proofs/Frame.v), which composes a state RELATION and therefore forgets what was read
   earlier in the same function, a triple carries an assertion about the current state from
   the read to the write. *)
From SaoVerif Require Import Base.Prelude Base.Ints Base.Dec Model.Did Model.Types Model.Monad Proofs.Frame.

Definition ht {A} (P : State -> Prop) (m : M A) (Q : A -> State -> Prop) (E : State -> Prop) : Prop :=
  forall t, P t -> match m t with Ok a t' => Q a t' | Err _ t' => E t' | Panic _ => True | Hang => True end.

Section Rules.
  Context {A : Type} (P : State -> Prop) (Q : A -> State -> Prop) (E : State -> Prop).

  Lemma ht_ret (a : A) : (forall t, P t -> Q a t) -> ht P (ret a) Q E.
  Proof. intros H t Ht. cbn. auto. Qed.
  Lemma ht_fail e : (forall t, P t -> E t) -> ht P (@fail A e) Q E.
  Proof. intros H t Ht. cbn. auto. Qed.
  Lemma ht_panic e : ht P (@panic A e) Q E.
  Proof. intros t Ht. exact I. Qed.
  Lemma ht_conseq (P' : State -> Prop) (Q' : A -> State -> Prop) (E' : State -> Prop) (m : M A) :
    ht P' m Q' E' -> (forall t, P t -> P' t) -> (forall a t, Q' a t -> Q a t) -> (forall t, E' t -> E t) -> ht P m Q E.
  Proof. intros H H1 H2 H3 t Ht. specialize (H t (H1 t Ht)). destruct (m t); auto. Qed.
  Lemma ht_pre (P' : State -> Prop) (m : M A) : ht P' m Q E -> (forall t, P t -> P' t) -> ht P m Q E.
  Proof. intros H H1. eapply ht_conseq; eauto. Qed.
  Lemma ht_bind {B} (m : M B) (k : B -> M A) (Qm : B -> State -> Prop) :
    ht P m Qm E -> (forall b, ht (Qm b) (k b) Q E) -> ht P (bind m k) Q E.
  Proof.
    intros Hm Hk t Ht. unfold bind. specialize (Hm t Ht). destruct (m t) as [b t1|e t1|e|]; auto.
    apply (Hk b t1 Hm).
  Qed.
  Lemma ht_bind_get (k : State -> M A) :
    (forall s0, P s0 -> ht (eq s0) (k s0) Q E) -> ht P (bind get k) Q E.
  Proof. intros H t Ht. unfold bind, get. apply (H t Ht t eq_refl). Qed.
End Rules.
Lemma ht_if {A} P (Q : A -> State -> Prop) E (c : bool) (m1 m2 : M A) :
  (c = true -> ht P m1 Q E) -> (c = false -> ht P m2 Q E) -> ht P (if c then m1 else m2) Q E.
Proof. intros H1 H2 t Ht. destruct c; [apply (H1 eq_refl t Ht)|apply (H2 eq_refl t Ht)]. Qed.

Lemma ht_get (P : State -> Prop) (Q : State -> State -> Prop) E : (forall t, P t -> Q t t) -> ht P get Q E.
Proof. intros H t Ht. cbn. auto. Qed.
Lemma ht_modify (P : State -> Prop) (Q : unit -> State -> Prop) E g : (forall t, P t -> Q tt (g t)) -> ht P (modify g) Q E.
Proof. intros H t Ht. cbn. auto. Qed.
Lemma ht_try {A} (P : State -> Prop) (m : M A) (Q : option A -> State -> Prop) E :
  ht P m (fun a => Q (Some a)) (Q None) -> ht P (try_ m) Q E.
Proof. intros H t Ht. unfold try_. specialize (H t Ht). destruct (m t); auto. Qed.
Lemma ht_forM {A} (I : State -> Prop) E (l : list A) (f : A -> M unit) :
  (forall a, ht I (f a) (fun _ => I) E) -> ht I (forM l f) (fun _ => I) E.
Proof.
  intros Hf. induction l as [|x l IH]; cbn [forM]; [apply ht_ret; auto|].
  eapply ht_bind; [apply Hf|intros []; exact IH].
Qed.

Lemma ht_keeps {T A} (f : State -> T) (F : T -> Prop) (m : M A) :
  keeps f m -> ht (fun t => F (f t)) m (fun _ t' => F (f t')) (fun t' => F (f t')).
Proof. intros H t Ht. specialize (H t). destruct (m t); auto; rewrite H; exact Ht. Qed.

Lemma ht_mok {A} (R : State -> State -> Prop) `{!Transitive R} h (m : M A) (b : State) :
  mok R h m -> ht (R b) m (fun _ t' => R b t') (R b).
Proof. intros H t Ht. specialize (H t). destruct (m t); auto; etransitivity; eauto. Qed.

Lemma mok_ht {A} (R : State -> State -> Prop) (m : M A) :
  (forall b, ht (eq b) m (fun _ t' => R b t') (R b)) -> mok R true m.
Proof. intros H s. specialize (H s s eq_refl). destruct (m s); auto. Qed.
