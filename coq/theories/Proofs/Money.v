(* C04 / C05 / C07 -- money: an order charges its payer once and exactly the quoted price,
   a cancelled order is refunded in full and its model rolled back, collateral leaves the
   node escrow only back to its provider (less recorded debt).

   Where a statement of the property list is false of the model, the strongest true variant
   is proved under the name [..._partial] and a concrete counterexample under [..._refuted]. *)
From SaoVerif Require Import Base.Prelude Base.Ints Base.Dec Model.Did Model.Types Model.Monad Model.Bank Model.Select
     Model.Node Model.Storage Model.Sao Model.Hooks Model.App Model.Spec Proofs.Outcome.
From RecordUpdate Require Import RecordUpdate.
Import RecordSetNotations.

Ltac zb :=
  repeat match goal with
  | H : (_ <=? _) = true |- _ => apply Z.leb_le in H
  | H : (_ <=? _) = false |- _ => apply Z.leb_gt in H
  | H : (_ <? _) = true |- _ => apply Z.ltb_lt in H
  | H : (_ <? _) = false |- _ => apply Z.ltb_ge in H
  | H : (_ =? _) = true |- _ => apply Z.eqb_eq in H
  | H : (_ =? _) = false |- _ => apply Z.eqb_neq in H
  end.

(** * Frames *)
Definition keeps {A B} (f : State -> B) (m : M A) : Prop :=
  forall s, match m s with Ok _ s' | Err _ s' => f s' = f s | _ => True end.

Lemma keeps_ret {A B} (f : State -> B) (a : A) : keeps f (ret a).
Proof. intros s. reflexivity. Qed.
Lemma keeps_fail {A B} (f : State -> B) e : keeps f (@fail A e).
Proof. intros s. reflexivity. Qed.
Lemma keeps_panic {A B} (f : State -> B) e : keeps f (@panic A e).
Proof. intros s. exact I. Qed.
Lemma keeps_get {B} (f : State -> B) : keeps f get.
Proof. intros s. reflexivity. Qed.
Lemma keeps_modify {B} (f : State -> B) g : (forall s, f (g s) = f s) -> keeps f (modify g).
Proof. intros H s. apply H. Qed.
Lemma keeps_bind {A B C} (f : State -> C) (m : M A) (k : A -> M B) :
  keeps f m -> (forall a, keeps f (k a)) -> keeps f (bind m k).
Proof.
  intros Hm Hk s. unfold bind. specialize (Hm s). destruct (m s) as [a s1|e s1|e|]; auto.
  specialize (Hk a s1). destruct (k a s1); auto; congruence.
Qed.
Lemma keeps_try {A B} (f : State -> B) (m : M A) : keeps f m -> keeps f (try_ m).
Proof. intros Hm s. unfold try_. specialize (Hm s). destruct (m s); auto. Qed.
Lemma keeps_forM {A B} (f : State -> B) (l : list A) (g : A -> M unit) :
  (forall a, keeps f (g a)) -> keeps f (forM l g).
Proof. intros H. induction l as [|x r IH]; simpl; [apply keeps_ret | apply keeps_bind; auto]. Qed.
Lemma keeps_hang {A B} (f : State -> B) : keeps f (fun _ => @Hang A).
Proof. intros s. exact I. Qed.

Lemma keeps_ok {A B} (f : State -> B) (m : M A) s a s' : keeps f m -> m s = Ok a s' -> f s' = f s.
Proof. intros H E. specialize (H s). rewrite E in H. exact H. Qed.
Lemma keeps_err {A B} (f : State -> B) (m : M A) s e s' : keeps f m -> m s = Err e s' -> f s' = f s.
Proof. intros H E. specialize (H s). rewrite E in H. exact H. Qed.

Lemma bind_keeps {A B T} (f : State -> T) (m : M A) (k : A -> M B) s b s' :
  keeps f m -> bind m k s = Ok b s' -> exists a s1, m s = Ok a s1 /\ f s1 = f s /\ k a s1 = Ok b s'.
Proof. intros K H. apply bind_ok in H as (a & s1 & Hm & H). exists a, s1. eauto using keeps_ok. Qed.
Lemma bind_reads {A B} (m : M A) (k : A -> M B) s b s' :
  keeps (fun s => s) m -> bind m k s = Ok b s' -> exists a, m s = Ok a s /\ k a s = Ok b s'.
Proof. intros K H. apply (bind_keeps _ _ _ _ _ _ K) in H as (a & ? & Hm & -> & H). eauto. Qed.
Lemma keeps_proj {A T U} (f : State -> T) (g : T -> U) (m : M A) : keeps f m -> keeps (fun s => g (f s)) m.
Proof. intros K s. specialize (K s). destruct (m s); congruence. Qed.

Lemma keeps_ite {A B} (f : State -> B) (c : bool) (m1 m2 : M A) :
  keeps f m1 -> keeps f m2 -> keeps f (if c then m1 else m2).
Proof. destruct c; auto. Qed.
Lemma keeps_opt {A B C} (f : State -> B) (o : option C) (m1 : C -> M A) (m2 : M A) :
  (forall c, keeps f (m1 c)) -> keeps f m2 -> keeps f (match o with Some c => m1 c | None => m2 end).
Proof. destruct o; auto. Qed.

Ltac keeps_walk1 :=
  match goal with
  | |- keeps _ (bind _ _) => apply keeps_bind; [| intros ?]
  | |- keeps _ (ret _) => apply keeps_ret
  | |- keeps _ (fail _) => apply keeps_fail
  | |- keeps _ (panic _) => apply keeps_panic
  | |- keeps _ get => apply keeps_get
  | |- keeps _ (modify _) => apply keeps_modify; intros ?; reflexivity
  | |- keeps _ (try_ _) => apply keeps_try
  | |- keeps _ (forM _ _) => apply keeps_forM; intros ?
  | |- keeps _ (fun _ => Hang) => apply keeps_hang
  | |- keeps _ (if _ then _ else _) => apply keeps_ite
  | |- keeps _ (match _ with Some _ => _ | None => _ end) => apply keeps_opt; [intros ?|]
  | |- keeps _ (match ?x with _ => _ end) => destruct x
  end.
Ltac keeps_walk := repeat keeps_walk1.

(** * Specifications *)
Definition sat {A} (m : M A) (s : State) (Q : A -> State -> Prop) (E : string -> State -> Prop) : Prop :=
  match m s with Ok a s' => Q a s' | Err e s' => E e s' | _ => True end.

Lemma sat_get {A} (k : State -> M A) s Q E : sat (k s) s Q E -> sat (bind get k) s Q E.
Proof. intros H. exact H. Qed.
Lemma sat_modify {A} g (k : unit -> M A) s Q E : sat (k tt) (g s) Q E -> sat (bind (modify g) k) s Q E.
Proof. intros H. exact H. Qed.
Lemma sat_bind {A B} (m : M A) (k : A -> M B) s Q0 E0 Q E :
  sat m s Q0 E0 -> (forall a s1, Q0 a s1 -> sat (k a) s1 Q E) -> (forall e s1, E0 e s1 -> E e s1) ->
  sat (bind m k) s Q E.
Proof.
  intros H Hk He. unfold sat, bind in *. destruct (m s) as [a s1|e s1|e|]; auto. exact (Hk a s1 H).
Qed.
Lemma sat_mono {A} (m : M A) s Q0 E0 (Q : A -> State -> Prop) (E : string -> State -> Prop) :
  sat m s Q0 E0 -> (forall a s1, Q0 a s1 -> Q a s1) -> (forall e s1, E0 e s1 -> E e s1) -> sat m s Q E.
Proof. unfold sat. destruct (m s); auto. Qed.
Lemma sat_ok {A} (m : M A) s Q E a s' : sat m s Q E -> m s = Ok a s' -> Q a s'.
Proof. unfold sat. intros H Hm. rewrite Hm in H. exact H. Qed.
Lemma sat_err {A} (m : M A) s Q E e s' : sat m s Q E -> m s = Err e s' -> E e s'.
Proof. unfold sat. intros H Hm. rewrite Hm in H. exact H. Qed.

Definition never (_ : string) (_ : State) : Prop := False.

Lemma sat_try {A B} (m : M A) (k : option A -> M B) s Q0 E0 Q E :
  sat m s Q0 E0 -> (forall a s1, Q0 a s1 -> sat (k (Some a)) s1 Q E) ->
  (forall e s1, E0 e s1 -> sat (k None) s1 Q E) -> sat (bind (try_ m) k) s Q E.
Proof.
  intros H Hk He. unfold sat, bind, try_ in *. destruct (m s) as [a s1|e s1|e|]; auto.
  - exact (Hk a s1 H).
  - exact (He e s1 H).
Qed.

(** * Bank *)
Lemma macc_inj a b : macc a = macc b -> a = b.
Proof. unfold macc. simpl. intros H. inversion H. reflexivity. Qed.

Lemma move_frame from to amt s : move from to amt s = s <| bal := bal (move from to amt s) |>.
Proof. reflexivity. Qed.

Lemma move_from from to amt s : from <> to -> balance (move from to amt s) from = balance s from - amt.
Proof.
  intros N. unfold balance, move. cbn.
  rewrite lookup_insert_ne by congruence. rewrite lookup_insert. reflexivity.
Qed.
Lemma move_to from to amt s : from <> to -> balance (move from to amt s) to = balance s to + amt.
Proof.
  intros N. unfold balance, move. cbn.
  rewrite lookup_insert. rewrite lookup_insert_ne by congruence. reflexivity.
Qed.
Lemma move_other from to amt s a : a <> from -> a <> to -> bal (move from to amt s) !! a = bal s !! a.
Proof.
  intros N1 N2. unfold move. cbn. rewrite !lookup_insert_ne by congruence. reflexivity.
Qed.
Lemma move_self a amt s x : balance (move a a amt s) x = balance s x.
Proof.
  unfold balance, move. cbn. destruct (decide (x = a)) as [->|N].
  - rewrite !lookup_insert. cbn. unfold balance. lia.
  - rewrite !lookup_insert_ne by congruence. reflexivity.
Qed.
Lemma move_bal_other from to amt s a : a <> from -> a <> to -> balance (move from to amt s) a = balance s a.
Proof. intros. unfold balance. rewrite move_other by assumption. reflexivity. Qed.

Lemma send_strict_spec from to amt s :
  sat (send_strict from to amt) s (fun _ s' => 0 < amt /\ amt <= balance s from /\ s' = move from to amt s)
       (fun _ s' => s' = s).
Proof.
  unfold sat, send_strict. destruct (amt <=? 0) eqn:E1; [reflexivity|].
  destruct (balance s from <? amt) eqn:E2; [reflexivity|]. zb. repeat split; lia.
Qed.
Lemma send_strict_inv from to amt s s' :
  send_strict from to amt s = Ok tt s' -> 0 < amt /\ amt <= balance s from /\ s' = move from to amt s.
Proof. exact (sat_ok _ _ _ _ _ _ (send_strict_spec from to amt s)). Qed.

Theorem send_strict_post : forall from to amt s s', send_strict from to amt s = Ok tt s' ->
  0 < amt /\ amt <= balance s from /\
  (from <> to -> balance s' from = balance s from - amt /\ balance s' to = balance s to + amt) /\
  (from = to -> forall a, balance s' a = balance s a) /\
  (forall a, a <> from -> a <> to -> bal s' !! a = bal s !! a) /\
  s' = s <| bal := bal s' |>.
Proof.
  intros from to amt s s' H. apply send_strict_inv in H as (H1 & H2 & ->).
  repeat split; try assumption.
  - apply move_from; assumption.
  - apply move_to; assumption.
  - intros -> a. apply move_self.
  - intros a. apply move_other.
Qed.
Print Assumptions send_strict_post.

Lemma send_lenient_inv from to amt s s' :
  send_lenient from to amt s = Ok tt s' ->
  (amt = 0 /\ s' = s) \/ (0 < amt /\ amt <= balance s from /\ s' = move from to amt s).
Proof.
  unfold send_lenient. destruct (amt =? 0) eqn:E.
  - intros H; inversion H; subst. left. zb. split; [assumption | reflexivity].
  - intros H. right. apply send_strict_inv in H. exact H.
Qed.

Theorem send_lenient_post : forall from to amt s s', send_lenient from to amt s = Ok tt s' ->
  0 <= amt /\ amt <= Z.max 0 (balance s from) /\
  (from <> to -> balance s' from = balance s from - amt /\ balance s' to = balance s to + amt) /\
  (forall a, a <> from -> a <> to -> bal s' !! a = bal s !! a) /\
  s' = s <| bal := bal s' |>.
Proof.
  intros from to amt s s' H. apply send_lenient_inv in H as [(-> & ->)|(H1 & H2 & ->)].
  - repeat split; try lia. destruct s; reflexivity.
  - repeat split; try lia.
    + apply move_from; assumption.
    + apply move_to; assumption.
    + intros a. apply move_other.
Qed.
Print Assumptions send_lenient_post.

Lemma keeps_send_strict {B} (f : State -> B) from to amt :
  (forall s b, f (s <| bal := b |>) = f s) -> keeps f (send_strict from to amt).
Proof.
  intros H s. unfold send_strict. destruct (amt <=? 0); [reflexivity|].
  destruct (balance s from <? amt); [reflexivity|]. unfold move. apply H.
Qed.
Lemma keeps_send_other from to amt a : a <> from -> a <> to -> keeps (fun s => bal s !! a) (send_strict from to amt).
Proof.
  intros N1 N2 s. unfold send_strict. destruct (amt <=? 0); [reflexivity|].
  destruct (balance s from <? amt); [reflexivity|]. apply move_other; assumption.
Qed.
Lemma keeps_send_lenient_other from to amt a :
  a <> from -> a <> to -> keeps (fun s => bal s !! a) (send_lenient from to amt).
Proof. intros N1 N2 s. unfold send_lenient. destruct (amt =? 0); [reflexivity | apply keeps_send_other; assumption]. Qed.

(** * Storage helpers: what they touch *)
Lemma expdata_eta s : s = s <| expdata := expdata s |>.
Proof. destruct s; reflexivity. Qed.

Lemma remove_data_expire_spec d a s :
  sat (remove_data_expire d a) s (fun _ s' => exists ex, s' = s <| expdata := ex |>) never.
Proof.
  unfold remove_data_expire. apply sat_get.
  destruct (expdata s !! a) as [l|]; [|exists (expdata s); apply expdata_eta].
  destruct (rm_expire_loop _ _ _ _ _) as [[arr len]|]; [|exact I].
  destruct (take len arr); eexists; reflexivity.
Qed.

Lemma keeps_remove_data_expire {B} (f : State -> B) d a :
  (forall s e, f (s <| expdata := e |>) = f s) -> keeps f (remove_data_expire d a).
Proof.
  intros Hf s. pose proof (remove_data_expire_spec d a s) as H. unfold sat in H.
  destruct (remove_data_expire d a s); auto; [destruct H as (ex & ->); apply Hf | destruct H].
Qed.

Lemma reset_meta_duration_spec cx d m s :
  sat (reset_meta_duration cx d m) s
    (fun m2 s' => (exists ex, s' = s <| expdata := ex |>) /\ exists nd, m2 = m <| m_duration := nd |>) never.
Proof.
  unfold reset_meta_duration. apply sat_get. cbv zeta.
  destruct (m_duration m =? _).
  - split; [exists (expdata s); apply expdata_eta | exists (m_duration m); destruct m; reflexivity].
  - eapply sat_bind; [apply remove_data_expire_spec | intros [] s1 (e1 & ->) | auto].
    split; eexists; reflexivity.
Qed.

Definition only_model_tables (s s' : State) : Prop :=
  exists mt md ex, s' = s <| metas := mt |> <| models := md |> <| expdata := ex |>.

Definition rolled_back (data : string) (s s' : State) : Prop :=
  (forall k, k <> data -> metas s' !! k = metas s !! k) /\
  match metas s !! data with
  | None => metas s' = metas s /\ models s' = models s
  | Some em =>
      match last_opt (m_commits em) with
      | None => metas s' !! data = None /\ models s' !! meta_key em = None
      | Some lastv => exists em', metas s' !! data = Some em' /\ m_status em' = MetaComplete /\
                        m_commit em' = commit_of_version lastv /\ m_commits em' = m_commits em /\ m_orders em' = m_orders em /\
                        m_owner em' = m_owner em /\ m_rw em' = m_rw em /\ m_ro em' = m_ro em /\ m_cid em' = m_cid em /\
                        models s' = models s
      end
  end.

Lemma rollback_meta_spec cx data s :
  sat (rollback_meta cx data) s (fun _ s' => only_model_tables s s' /\ rolled_back data s s') never.
Proof.
  unfold rollback_meta, only_model_tables, rolled_back. apply sat_get.
  destruct (metas s !! data) as [em|] eqn:Em.
  - destruct (last_opt (m_commits em)) as [lastv|] eqn:El.
    + destruct (last_opt (m_orders em)) as [lo|]; [|exact I].
      eapply sat_bind; [apply reset_meta_duration_spec | intros m2 s1 ((ex & ->) & (nd & ->)) | auto].
      split; [do 3 eexists; reflexivity|]. cbn. split.
      * intros k Hk. rewrite lookup_insert_ne by congruence. reflexivity.
      * eexists. rewrite lookup_insert. split; [reflexivity|]. cbn. repeat split; reflexivity.
    + apply sat_modify.
      eapply sat_mono; [apply remove_data_expire_spec | intros [] s1 (ex & ->) | auto].
      split; [do 3 eexists; reflexivity|]. cbn. split.
      * intros k Hk. rewrite lookup_delete_ne by congruence. reflexivity.
      * split; apply lookup_delete.
  - split; [exists (metas s), (models s), (expdata s); destruct s; reflexivity|]. split; [reflexivity|]. split; reflexivity.
Qed.

(** * C05: cancel_order *)
Definition paydid_of (o : Order) : string := if String.eqb (o_paydid o) "" then o_owner o else o_paydid o.

Lemma refund_order_spec oid s :
  sat (refund_order oid) s
    (fun _ s' => exists o payer, orders s !! oid = Some o /\ pay_addr s (paydid_of o) = Some payer /\ 0 < o_amount o /\
                   o_amount o <= balance s (macc ORDER) /\ s' = move (macc ORDER) payer (o_amount o) s)
    (fun _ s' => s' = s).
Proof.
  unfold refund_order. apply sat_get. destruct (orders s !! oid) as [o|]; [|reflexivity].
  fold (paydid_of o). destruct (pay_addr s (paydid_of o)) as [payer|] eqn:Hp; [|reflexivity].
  eapply sat_mono; [apply send_strict_spec | intros [] s1 H; exists o, payer; auto | auto].
Qed.

Lemma cancel_order_spec cx oid s :
  sat (cancel_order cx oid) s
    (fun _ s' => exists o payer s2, orders s !! oid = Some o /\ pay_addr s (paydid_of o) = Some payer /\ 0 < o_amount o /\
       o_amount o <= balance s (macc ORDER) /\
       rollback_meta cx (o_data o) (move (macc ORDER) payer (o_amount o) s) = Ok tt s2 /\ s' = s2 <| orders ::= delete oid |>)
    (fun e s' => e = "RefundOrder" /\ s' = s).
Proof.
  unfold cancel_order. apply sat_get. cbv zeta.
  eapply sat_try; [apply refund_order_spec | intros [] s1 (o & payer & Ho & Hp & H1 & H2 & ->) | intros e s1 ->; split; reflexivity].
  rewrite Ho. unfold sat, bind.
  destruct (rollback_meta cx (o_data o) _) as [[] s2|e s2|e|] eqn:Hrb; [|destruct (sat_err _ _ _ _ _ _ (rollback_meta_spec _ _ _) Hrb)|exact I..].
  exists o, payer, s2. auto 10.
Qed.

Lemma cancel_order_inv cx oid s s' o :
  cancel_order cx oid s = Ok tt s' -> orders s !! oid = Some o ->
  exists payer s2, pay_addr s (paydid_of o) = Some payer /\ 0 < o_amount o /\ o_amount o <= balance s (macc ORDER) /\
    rollback_meta cx (o_data o) (move (macc ORDER) payer (o_amount o) s) = Ok tt s2 /\
    s' = s2 <| orders ::= delete oid |>.
Proof.
  intros H Ho. destruct (sat_ok _ _ _ _ _ _ (cancel_order_spec cx oid s) H) as (o' & payer & s2 & Ho' & R).
  rewrite Ho in Ho'. injection Ho' as <-. exists payer, s2. exact R.
Qed.
Lemma cancel_order_err cx oid s e s' : cancel_order cx oid s = Err e s' -> e = "RefundOrder" /\ s' = s.
Proof. exact (sat_err _ _ _ _ _ _ (cancel_order_spec cx oid s)). Qed.

Theorem cancel_order_post : forall cx oid s s' o payer, cancel_order cx oid s = Ok tt s' -> orders s !! oid = Some o ->
  pay_addr s (if String.eqb (o_paydid o) "" then o_owner o else o_paydid o) = Some payer -> payer <> macc ORDER ->
  balance s' payer = balance s payer + o_amount o /\ balance s' (macc ORDER) = balance s (macc ORDER) - o_amount o /\
  (forall a, a <> payer -> a <> macc ORDER -> bal s' !! a = bal s !! a) /\
  orders s' !! oid = None /\ (forall k, k <> oid -> orders s' !! k = orders s !! k) /\
  shards s' = shards s /\ pledges s' = pledges s /\ workers s' = workers s /\ debts s' = debts s /\ pool s' = pool s /\
  (forall k, k <> o_data o -> metas s' !! k = metas s !! k) /\
  match metas s !! o_data o with
  | None => metas s' = metas s /\ models s' = models s
  | Some em =>
      match last_opt (m_commits em) with
      | None => metas s' !! o_data o = None /\ models s' !! meta_key em = None   (* never committed: the model and its alias cease to exist *)
      | Some lastv => exists em', metas s' !! o_data o = Some em' /\ m_status em' = MetaComplete /\
                        m_commit em' = commit_of_version lastv /\ m_commits em' = m_commits em /\ m_orders em' = m_orders em /\
                        m_owner em' = m_owner em /\ m_rw em' = m_rw em /\ m_ro em' = m_ro em /\ m_cid em' = m_cid em /\
                        models s' = models s
      end
  end.
Proof.
  intros cx oid s s' o payer H Ho Hp Hne.
  apply (cancel_order_inv _ _ _ _ o) in H as (payer' & s2 & Hp' & H1 & H2 & Hrb & ->); [|assumption].
  unfold paydid_of in Hp'. rewrite Hp in Hp'. injection Hp' as <-.
  apply (sat_ok _ _ _ _ _ _ (rollback_meta_spec _ _ _)) in Hrb as ((mt & md & ex & ->) & Hk & Hm).
  split; [apply move_to; congruence|]. split; [apply move_from; congruence|].
  split; [intros a Ha1 Ha2; apply move_other; assumption|].
  split; [apply lookup_delete|]. split; [intros k Hk'; apply lookup_delete_ne; congruence|].
  do 5 (split; [reflexivity|]).
  (* project the tables first: left to conversion, each [metas _] compares two whole states *)
  cbn in Hk, Hm |- *. exact (conj Hk Hm).
Qed.
Print Assumptions cancel_order_post.

(** * C05: the Cancel message *)
(* the loop body of [sao_cancel], word for word: [cancel_msg_post] needs the two convertible *)
Definition cancel_shard_body (id : Z) : M unit :=
  s1 <- get ;;
  match shards s1 !! id with
  | None => fail "shard not found"
  | Some sh =>
      (if sh_status sh =? ShardCompleted then shard_release (sh_sp sh) (Some sh) else ret tt) ;;;
      modify (fun s => s <| shards ::= delete id |>)
  end.

Lemma cancel_shards_loop : forall l s s',
  forM l cancel_shard_body s = Ok tt s' ->
  (forall id sh, In id l -> shards s !! id = Some sh -> sh_status sh <> ShardCompleted) ->
  exists shs, s' = s <| shards := shs |> /\
    (forall id, In id l -> shs !! id = None) /\
    (forall id, ~ In id l -> shs !! id = shards s !! id).
Proof.
  induction l as [|id r IH]; intros s s' H Hst.
  - inversion H; subst. exists (shards s'). split; [destruct s'; reflexivity|]. split; [intros id []|reflexivity].
  - simpl in H. apply bind_ok in H as ([] & s1 & Hb & H).
    assert (E1 : s1 = s <| shards ::= delete id |>).
    { unfold cancel_shard_body in Hb. rewrite bind_get in Hb.
      destruct (shards s !! id) as [sh|] eqn:Es; [|discriminate].
      assert (Hn : (sh_status sh =? ShardCompleted) = false).
      { apply Z.eqb_neq. apply (Hst id sh); [left; reflexivity | exact Es]. }
      rewrite Hn in Hb. inversion Hb; reflexivity. }
    subst s1. apply IH in H as (shs & -> & Hin & Hout).
    + cbn in Hout. exists shs. split; [reflexivity|]. split.
      * intros id' [<-|Hi]; [|apply Hin; exact Hi].
        destruct (In_dec Z.eq_dec id r) as [Hi|Hi]; [apply Hin; exact Hi|].
        rewrite Hout by exact Hi. apply lookup_delete.
      * intros id' Hni. rewrite Hout by (intros Hi; apply Hni; right; exact Hi).
        apply lookup_delete_ne. intros ->. apply Hni. left; reflexivity.
    + intros id' sh Hi Hs. cbn in Hs. destruct (decide (id' = id)) as [->|Hne].
      * rewrite lookup_delete in Hs. discriminate.
      * rewrite lookup_delete_ne in Hs by congruence. apply (Hst id' sh); [right; exact Hi | exact Hs].
Qed.

Theorem cancel_msg_post : forall cx s c p oid s' d o, step cx s (OCancel c p oid) = (s', OutTx COk d) -> orders s !! oid = Some o ->
  (forall id sh, In id (o_shards o) -> shards s !! id = Some sh -> sh_status sh <> ShardCompleted) ->
  orders s' !! oid = None /\ (forall id, In id (o_shards o) -> shards s' !! id = None) /\
  (forall id, ~ In id (o_shards o) -> shards s' !! id = shards s !! id) /\
  pledges s' = pledges s /\ workers s' = workers s /\ debts s' = debts s /\
  exists payer, pay_addr s (if String.eqb (o_paydid o) "" then o_owner o else o_paydid o) = Some payer /\
    (payer <> macc ORDER -> balance s' payer = balance s payer + o_amount o).
Proof.
  intros cx s c p oid s' d o H Ho Hst.
  apply (step_tx_ok _ _ _ (sao_cancel cx c p oid)) in H; [|reflexivity].
  unfold sao_cancel in H. rewrite bind_get in H.
  rewrite Ho in H.
  do 3 (apply if_ok in H; [|discriminate]). (* NotCreator, OrderCompleted, InvalidProvider *)
  apply bind_ok in H as ([] & s1 & Hl & H).
  apply (cancel_shards_loop (o_shards o)) in Hl as (shs & -> & Hin & Hout); [|exact Hst].
  apply (cancel_order_inv _ _ _ _ o) in H as (payer & s2 & Hp & H1 & H2 & Hrb & ->); [|exact Ho].
  apply (sat_ok _ _ _ _ _ _ (rollback_meta_spec _ _ _)) in Hrb as ((mt & md & ex & ->) & _).
  split; [apply lookup_delete|]. split; [exact Hin|]. split; [exact Hout|].
  do 3 (split; [reflexivity|]).
  exists payer. split; [exact Hp|]. intros Hne.
  exact (move_to (macc ORDER) payer (o_amount o) (s <| shards := shs |>) (not_eq_sym Hne)).
Qed.
Print Assumptions cancel_msg_post.

(** * C05: the timeout path *)
(* the exact form of [timeout_pending_cancels]: RollbackMeta has no error return, so a failed
   cancel is a failed refund and wrote nothing *)
Theorem timeout_pending_cancels_exact : forall cx oid s s' o, handle_timeout_order cx oid s = Ok tt s' -> orders s !! oid = Some o ->
  o_status o = OrderPending -> cancel_order cx oid s = Ok tt s' \/ (cancel_order cx oid s = Err "RefundOrder" s /\ s' = s).
Proof.
  intros cx oid s s' o H Ho Hs. unfold handle_timeout_order in H.
  rewrite bind_get in H.
  rewrite Ho, Hs in H. change (OrderPending =? OrderPending) with true in H. cbv iota in H.
  apply bind_ok in H as (r & s1 & Ht & H). inversion H; subst s1; clear H.
  apply try_ok in Ht as [([] & Hc & _)|(e & Hc & _)]; [left; exact Hc|].
  right. destruct (cancel_order_err _ _ _ _ _ Hc) as (-> & ->). split; [exact Hc | reflexivity].
Qed.
Print Assumptions timeout_pending_cancels_exact.

Theorem timeout_pending_cancels : forall cx oid s s' o, handle_timeout_order cx oid s = Ok tt s' -> orders s !! oid = Some o ->
  o_status o = OrderPending ->
  (cancel_order cx oid s = Ok tt s') \/ (s' = s (* the refund failed: nothing changed *)) \/
  (exists e sx, cancel_order cx oid s = Err e sx /\ s' = sx).
Proof.
  intros cx oid s s' o H Ho Hs. destruct (timeout_pending_cancels_exact _ _ _ _ _ H Ho Hs) as [Hc|(Hc & ->)].
  - left; exact Hc.
  - right; left; reflexivity.
Qed.
Print Assumptions timeout_pending_cancels.

(** * sdk.Dec arithmetic on whole coins *)
Lemma P18_pos : 0 < P18. Proof. unfold P18; lia. Qed.
Lemma P18_nz : P18 <> 0. Proof. unfold P18; lia. Qed.

Lemma chop_round_pos_mul k : chop_round_pos (k * P18) = k.
Proof.
  unfold chop_round_pos. cbv zeta. rewrite (Z.mod_mul k P18 P18_nz). rewrite (Z.div_mul k P18 P18_nz). reflexivity.
Qed.
Lemma chop_round_mul k : chop_round (k * P18) = k.
Proof.
  unfold chop_round. destruct (k * P18 <? 0).
  - replace (- (k * P18)) with ((- k) * P18) by lia. rewrite chop_round_pos_mul. lia.
  - apply chop_round_pos_mul.
Qed.
Lemma dec_trunc_mul k : dec_trunc (k * P18) = k.
Proof. unfold dec_trunc. apply Z.quot_mul. exact P18_nz. Qed.
Lemma dec_ceil_mul k : dec_ceil (k * P18) = k * P18.
Proof.
  unfold dec_ceil. cbv zeta. rewrite (Z.rem_mul k P18 P18_nz). rewrite (Z.quot_mul k P18 P18_nz). reflexivity.
Qed.
Lemma dec_quo_of_int_price a : dec_quo (dec_of_int a) PRICE = (a * 1000000) * P18.
Proof.
  unfold dec_quo, dec_of_int.
  replace (a * P18 * P18 * P18) with ((a * 1000000 * P18 * P18) * PRICE) by (unfold P18, PRICE; ring).
  rewrite Z.quot_mul by (unfold PRICE; lia). apply chop_round_mul.
Qed.
(* the storage bought by [a] whole coins at 10^-6 coins per byte *)
Lemma size_of_coins a : dec_trunc (dec_quo (dec_of_int a) PRICE) = a * 1000000.
Proof. rewrite dec_quo_of_int_price. apply dec_trunc_mul. Qed.
Lemma size_of_coins_ceil a : dec_trunc (dec_ceil (dec_quo (dec_of_int a) PRICE)) = a * 1000000.
Proof. rewrite dec_quo_of_int_price, dec_ceil_mul. apply dec_trunc_mul. Qed.

(** * C07: collateral *)
Lemma settle_keeps acc p :
  pl_spledged (settle acc p) = pl_spledged p /\ pl_shpledged (settle acc p) = pl_shpledged p /\
  pl_total (settle acc p) = pl_total p /\ pl_used (settle acc p) = pl_used p.
Proof. unfold settle. destruct (0 <? pl_total p); repeat split; reflexivity. Qed.

Lemma coin_sub_inv a b s r s' : coin_sub a b s = Ok r s' -> r = a - b /\ 0 <= a - b /\ s' = s.
Proof.
  unfold coin_sub. destruct (a - b <? 0) eqn:E; [discriminate|]. intros H; inversion H; subst. zb. repeat split; lia.
Qed.

Lemma repay_debt_one sp x s rw s' :
  repay_debt sp [x] s = Ok rw s' -> 0 <= x -> (forall dbt, debts s !! sp = Some dbt -> 0 <= dbt) ->
  exists repaid dm, rw = [x - repaid] /\ 0 <= repaid /\ repaid <= x /\ repaid <= default 0 (debts s !! sp) /\
    s' = s <| debts := dm |> /\ default 0 (dm !! sp) = default 0 (debts s !! sp) - repaid /\
    (forall k, k <> sp -> dm !! k = debts s !! k).
Proof.
  unfold repay_debt. intros H Hx Hd. rewrite bind_get in H.
  destruct (debts s !! sp) as [dbt|] eqn:Ed.
  - specialize (Hd dbt eq_refl). simpl in H. destruct (dbt <=? x) eqn:El; zb.
    + rewrite bind_modify in H. inversion H; subst; clear H.
      exists dbt, (delete sp (debts s)). cbn. rewrite lookup_delete. cbn.
      repeat split; try lia. intros k Hk. apply lookup_delete_ne. congruence.
    + rewrite bind_modify in H. inversion H; subst; clear H.
      exists x, (<[sp := dbt - x]> (debts s)). cbn. rewrite lookup_insert. cbn.
      repeat split; try lia.
      * f_equal. lia.
      * intros k Hk. apply lookup_insert_ne. congruence.
  - inversion H; subst; clear H. exists 0, (debts s'). rewrite Ed. cbn.
    repeat split; try lia.
    + f_equal. lia.
    + destruct s'; reflexivity.
Qed.

Theorem shard_release_pays_owner : forall sp sh s s' p, shard_release sp (Some sh) s = Ok tt s' -> sh_sp sh = sp ->
  pledges s !! sp = Some p -> sp <> macc NODE -> 0 <= sh_pledge sh ->
  (forall dbt, debts s !! sp = Some dbt -> 0 <= dbt) ->
  exists repaid p', 0 <= repaid /\ repaid <= sh_pledge sh /\ repaid <= default 0 (debts s !! sp) /\
    balance s' sp = balance s sp + (sh_pledge sh - repaid) /\
    balance s' (macc NODE) = balance s (macc NODE) - (sh_pledge sh - repaid) /\
    default 0 (debts s' !! sp) = default 0 (debts s !! sp) - repaid /\
    (forall a, a <> sp -> a <> macc NODE -> bal s' !! a = bal s !! a) /\
    pledges s' !! sp = Some p' /\ pl_shpledged p' = pl_shpledged p - sh_pledge sh /\
    pl_used p' = i64 (pl_used p - i64 (sh_size sh)) /\ pl_total p' = pl_total p /\ pl_spledged p' = pl_spledged p /\
    (forall k, k <> sp -> pledges s' !! k = pledges s !! k).
Proof.
  intros sp sh s s' p H Hsp Hp Hne Hpl Hd. unfold shard_release in H.
  rewrite bind_get in H.
  rewrite Hp in H. destruct (pool s) as [po|]; [|discriminate].
  destruct (settle_keeps (po_accreward po) p) as (F1 & F2 & F3 & F4). set (p1 := settle _ _) in *.
  apply bind_ok in H as (p2 & s1 & H2 & H). injection H as <-.
  apply bind_ok in H2 as (rw & s2 & Hr & H2). rewrite Hsp in Hr.
  apply repay_debt_one in Hr as (repaid & dm & -> & R1 & R2 & R3 & -> & R4 & R5); [|assumption|assumption].
  cbn [hd] in H2. apply bind_ok in H2 as ([] & s3 & Hs & H2).
  apply bind_ok in H2 as (shp & s4 & Hc & H2). apply coin_sub_inv in Hc as (-> & Hc & ->).
  injection H2 as <- <-.
  exists repaid. eexists.
  assert (Hb : balance s3 sp = balance s sp + (sh_pledge sh - repaid) /\
               balance s3 (macc NODE) = balance s (macc NODE) - (sh_pledge sh - repaid) /\
               (forall a, a <> sp -> a <> macc NODE -> bal s3 !! a = bal s !! a) /\
               pledges s3 = pledges s /\ debts s3 = dm).
  { destruct (sh_pledge sh - repaid =? 0) eqn:E0; zb.
    - inversion Hs; subst s3; clear Hs. rewrite E0. cbn. repeat split; try reflexivity; unfold balance; cbn; lia.
    - apply send_strict_inv in Hs as (_ & _ & ->). repeat split; try reflexivity.
      + rewrite move_to by congruence. reflexivity.
      + rewrite move_from by congruence. reflexivity.
      + intros a A1 A2. rewrite move_other by assumption. reflexivity. }
  destruct Hb as (B1 & B2 & B3 & B4 & B5).
  do 5 (split; [assumption|]).
  split; [cbn; rewrite B5; exact R4|].
  split; [exact B3|].
  split; [cbn; apply lookup_insert|].
  split; [cbn; rewrite F2; reflexivity|].
  split; [cbn; rewrite F4; reflexivity|].
  split; [cbn; exact F3|].
  split; [cbn; exact F1|].
  intros k Hk. cbn. rewrite lookup_insert_ne by congruence. rewrite B4. reflexivity.
Qed.
Print Assumptions shard_release_pays_owner.

Theorem remove_vstorage_guard : forall cx s c sz s' d, step cx s (ORemoveVstorage c sz) = (s', OutTx COk d) ->
  exists p p' amount, pledges s !! c = Some p /\ pledges s' !! c = Some p' /\ 0 < amount /\
    amount * 1000000 <= pl_total p - pl_used p /\            (* never capacity that backs stored shards *)
    pl_total p' = pl_total p - amount * 1000000 /\ pl_used p' = pl_used p /\ pl_spledged p' = pl_spledged p - amount /\
    (c <> macc NODE -> balance s' c = balance s c + amount /\ balance s' (macc NODE) = balance s (macc NODE) - amount) /\
    (forall a, a <> c -> a <> macc NODE -> bal s' !! a = bal s !! a).
Proof.
  intros cx s c sz s' d H.
  apply (step_tx_ok _ _ _ (remove_vstorage c sz)) in H; [|reflexivity].
  unfold remove_vstorage in H. rewrite bind_get in H.
  destruct (nodes s !! c) as [n|]; [|discriminate].
  destruct (pool s) as [po|]; [|discriminate].
  destruct (pledges s !! c) as [p|] eqn:Ep; [|discriminate].
  cbv zeta in H. rewrite size_of_coins_ceil in H.
  remember (dec_trunc (dec_mul_int PRICE (i64 sz))) as amount eqn:Ea.
  destruct (amount =? 0) eqn:E0; [discriminate|].
  destruct (pl_total p - pl_used p <? amount * 1000000) eqn:E1; [discriminate|].
  destruct (amount <? 0) eqn:E2; [discriminate|]. zb.
  apply bind_ok in H as (sp' & s1 & Hc & H). apply coin_sub_inv in Hc as (-> & Hc & ->).
  apply bind_ok in H as ([] & s2 & Hs & H). apply send_strict_inv in Hs as (_ & _ & ->).
  destruct (settle_keeps (po_accreward po) (p <| pl_spledged := pl_spledged p - amount |>)) as (F1 & F2 & F3 & F4).
  set (p1 := settle _ _) in *.
  apply (bind_keeps bal) in H as ([] & s3 & _ & Kb & H); [|keeps_walk].
  injection H as <-.
  exists p. eexists. exists amount.
  split; [reflexivity|]. split; [cbn; apply lookup_insert|].
  split; [lia|]. split; [lia|].
  split; [cbn; rewrite F3; reflexivity|].
  split; [cbn; rewrite F4; reflexivity|].
  split; [cbn; rewrite F1; reflexivity|].
  split.
  - intros Hne. unfold balance. cbn. rewrite Kb. split; [apply move_to | apply move_from]; congruence.
  - intros a A1 A2. cbn. rewrite Kb. apply move_other; assumption.
Qed.
Print Assumptions remove_vstorage_guard.

Theorem add_vstorage_takes : forall cx s c sz s' d, step cx s (OAddVstorage c sz) = (s', OutTx COk d) ->
  exists amount p', 0 < amount /\ pledges s' !! c = Some p' /\
    pl_total p' = match pledges s !! c with Some p => pl_total p | None => 0 end + amount * 1000000 /\
    pl_spledged p' = match pledges s !! c with Some p => pl_spledged p | None => 0 end + amount /\
    (c <> macc NODE -> balance s' c = balance s c - amount /\ balance s' (macc NODE) = balance s (macc NODE) + amount).
Proof.
  intros cx s c sz s' d H.
  apply (step_tx_ok _ _ _ (add_vstorage c sz)) in H; [|reflexivity].
  unfold add_vstorage in H. rewrite bind_get in H.
  destruct (nodes s !! c) as [n|]; [|discriminate].
  destruct (pool s) as [po|]; [|discriminate].
  cbv zeta in H. rewrite size_of_coins in H.
  remember (dec_trunc (dec_ceil (dec_mul_int PRICE (i64 sz)))) as amount eqn:Ea.
  apply if_ok in H; [|discriminate]. (* negative coin amount *)
  apply bind_ok in H as ([] & s2 & Hs & H). apply send_strict_inv in Hs as (Hpos & _ & ->).
  match type of H with context [settle ?a ?p] => destruct (settle_keeps a p) as (F1 & _ & F3 & _) end.
  set (p1 := settle _ _) in *.
  apply (bind_keeps bal) in H as ([] & s3 & _ & Kb & H); [|keeps_walk].
  injection H as <-.
  exists amount. eexists.
  split; [exact Hpos|]. split; [cbn; apply lookup_insert|].
  split; [|split].
  - cbn. rewrite F3. destruct (pledges s !! c); reflexivity.
  - cbn. rewrite F1. destruct (pledges s !! c); cbn; lia.
  - intros Hne. unfold balance. cbn. rewrite Kb. split; [apply move_from | apply move_to]; congruence.
Qed.
Print Assumptions add_vstorage_takes.

(** * C04: Store *)
(* msg_server_store.go: price.MulInt64(size).MulInt64(replica).MulInt64(duration), truncated to a
   whole coin, plus one if anything was cut off *)
Definition quote (size replica duration : Z) : Z :=
  ceil_coin (dec_mul_int (dec_mul_int (dec_mul_int PRICE (i64 size)) (i64 replica)) (i64 duration)).

Definition store_frame (s : State) := (bal s, orders s, order_count s, did s).

Definition order_frame (s : State) := (bal s, orders s).

Lemma gen_shards_inv : forall sps oid o s o' s',
  gen_shards oid o sps s = Ok o' s' -> o_amount o' = o_amount o /\ order_frame s' = order_frame s.
Proof.
  induction sps as [|sp r IH]; intros oid o s o' s' H; simpl in H.
  - inversion H; subst. split; reflexivity.
  - apply bind_ok in H as (id & s1 & Hn & H). apply IH in H as (Ha & Hf).
    unfold new_shard_task, append_shard in Hn. rewrite bind_get in Hn.
    rewrite bind_modify in Hn. inversion Hn; subst; clear Hn.
    split; [exact Ha | exact Hf].
Qed.

Lemma generate_shards_inv sps oid o s o' s' :
  generate_shards oid o sps s = Ok o' s' -> o_amount o' = o_amount o /\ order_frame s' = order_frame s.
Proof.
  unfold generate_shards. destruct sps as [|sp r].
  - intros H; inversion H; subst. split; reflexivity.
  - intros H. apply bind_ok in H as (o1 & s1 & Hg & H). apply gen_shards_inv in Hg as (Ha & Hf).
    inversion H; subst. split; [exact Ha | exact Hf].
Qed.

Lemma new_order_inv cx o sps s id o2 s' :
  new_order cx o sps s = Ok (id, o2) s' ->
  id = order_count s /\ o_amount o2 = o_amount o /\ bal s' = bal s /\ orders s' !! id = Some o2 /\
  (forall k, k <> id -> orders s' !! k = orders s !! k).
Proof.
  unfold new_order. intros H. apply bind_ok in H as (id0 & s1 & Ha & H).
  unfold append_order in Ha. rewrite bind_get in Ha.
  rewrite bind_modify in Ha. inversion Ha; subst id0 s1; clear Ha.
  apply bind_ok in H as (o1 & s1 & Hg & H). apply generate_shards_inv in Hg as (Hamt & Hf).
  rewrite bind_modify in H. inversion H; subst; clear H.
  unfold order_frame in Hf. injection Hf as Fb Fo.
  split; [reflexivity|]. split; [exact Hamt|]. split; [exact Fb|].
  split; [cbn; apply lookup_insert|].
  intros k Hk. cbn. rewrite lookup_insert_ne by congruence. rewrite Fo. cbn. apply lookup_insert_ne. congruence.
Qed.

Definition pay_not_escrow (s : State) : Prop := forall x a, pay_addr s x = Some a -> a <> macc ORDER.

Theorem store_charges_quote_core : forall cx s m s' d, step cx s (OStore m) = (s', OutTx COk d) ->
  exists payer oid o, (exists x, pay_addr s x = Some payer) /\ orders s' !! oid = Some o /\ oid = order_count s /\
    o_amount o = quote (if st_size m =? 0 then 1 else st_size m) (st_replica m) (st_duration m) /\ 0 < o_amount o /\
    o_amount o <= balance s payer /\
    (payer <> macc ORDER ->
     balance s' payer = balance s payer - o_amount o /\ balance s' (macc ORDER) = balance s (macc ORDER) + o_amount o) /\
    (payer = macc ORDER -> forall a, balance s' a = balance s a) /\
    (forall a, a <> payer -> a <> macc ORDER -> bal s' !! a = bal s !! a) /\
    (forall k, k <> oid -> orders s' !! k = orders s !! k).
Proof.
  intros cx s m s' d H.
  apply (step_tx_ok _ _ _ (sao_store cx m)) in H; [|reflexivity].
  unfold sao_store in H. rewrite bind_get in H.
  destruct (verify_sig s (st_owner m) (st_sig m)) as [sigdid|]; [|discriminate].
  (* invalid commitId, dataId, operation, duration; InvalidCid; metadata not found; NoPermission *)
  do 7 (apply if_ok in H; [|discriminate]).
  apply bind_reads in H as (pay0 & Hpay0 & H); [|keeps_walk].
  destruct (nodes s !! st_pprovider m) as [pn|]; [|discriminate].
  destruct (split_commit (st_commit m)) as [last_commit commit].
  apply if_ok in H; [|discriminate]. (* invalid timeout *)
  apply bind_reads in H as (isp & _ & H); [|keeps_walk].
  apply (bind_keeps store_frame) in H as (sps & s1 & _ & Hf & H); [|unfold get_sps, random_sp_m; keeps_walk].
  injection Hf as Fb Fo Fc Fd.
  fold (quote (if st_size m =? 0 then 1 else st_size m) (st_replica m) (st_duration m)) in H.
  set (amount := quote (if st_size m =? 0 then 1 else st_size m) (st_replica m) (st_duration m)) in *.
  apply if_ok in H; [|discriminate]. (* negative decimal coin amount *)
  rewrite bind_get in H.
  apply bind_reads in H as (payer & Hpayer & H); [|keeps_walk].
  assert (Hx : exists x, pay_addr s x = Some payer).
  { destruct pay0 as [a|].
    - exists (st_paydid m). injection Hpayer as ->.
      destruct (String.eqb (st_paydid m) ""); [discriminate|]. destruct (negb _); [discriminate|].
      destruct (pay_addr s (st_paydid m)) as [a|]; [|discriminate].
      destruct (String.eqb a (st_creator m)); inversion Hpay0; reflexivity.
    - exists (st_owner m). unfold pay_addr in *. rewrite <- Fd.
      destruct (d_pay (did s1) !! st_owner m); inversion Hpayer; reflexivity. }
  clear Hpay0 Hpayer.
  apply if_ok in H; [|discriminate]. (* InsufficientCoin *)
  apply bind_ok in H as ([] & s2 & Hsend & H). apply send_strict_inv in Hsend as (Hpos & Hle & ->).
  apply bind_ok in H as ([oid o2] & s3 & Hno & H).
  apply new_order_inv in Hno as (Hid & Hamt & Hb3 & Ho3 & Hk3). cbn in Hid, Hamt, Hk3.
  apply (keeps_ok order_frame) in H;
    [|unfold set_timeout_block, update_meta_status_commit, new_meta, set_data_expire;
      repeat first [apply keeps_remove_data_expire; reflexivity | keeps_walk1]].
  injection H as Gb Go.
  assert (Hb : bal s' = bal (move payer (macc ORDER) (o_amount o2) s)).
  { rewrite Gb, Hb3, Hamt. unfold move, balance. cbn. rewrite Fb. reflexivity. }
  exists payer, oid, o2. split; [exact Hx|]. split; [rewrite Go; exact Ho3|]. split; [congruence|].
  split; [exact Hamt|]. rewrite Hamt. split; [exact Hpos|].
  split; [unfold balance in *; rewrite <- Fb; exact Hle|]. rewrite <- Hamt. split; [|split; [|split]].
  - intros Hne. unfold balance. rewrite Hb. split; [apply move_from | apply move_to]; exact Hne.
  - intros -> a. unfold balance. rewrite Hb. apply move_self.
  - intros a A1 A2. rewrite Hb. apply move_other; assumption.
  - intros k Hk. rewrite Go, Hk3 by congruence. rewrite Fo. reflexivity.
Qed.
Print Assumptions store_charges_quote_core.

(* the statement of C04, under the two facts the model does not supply by itself:
   no payment address is the order escrow account, and the next order id is unused *)
Theorem store_charges_quote_partial : forall cx s m s' d, step cx s (OStore m) = (s', OutTx COk d) ->
  pay_not_escrow s -> orders s !! order_count s = None ->
  exists payer oid o, orders s !! oid = None /\ orders s' !! oid = Some o /\ oid = order_count s /\
    o_amount o = quote (if st_size m =? 0 then 1 else st_size m) (st_replica m) (st_duration m) /\ 0 < o_amount o /\
    payer <> macc ORDER /\
    balance s' payer = balance s payer - o_amount o /\ balance s' (macc ORDER) = balance s (macc ORDER) + o_amount o /\
    (forall a, a <> payer -> a <> macc ORDER -> bal s' !! a = bal s !! a).
Proof.
  intros cx s m s' d H Hpay Hfresh.
  apply store_charges_quote_core in H as (payer & oid & o & (x & Hx) & Ho & Hid & Hq & Hpos & Hle & Hb & _ & Hoth & _).
  pose proof (Hpay x payer Hx) as Hne. destruct (Hb Hne) as (B1 & B2).
  exists payer, oid, o. subst oid. repeat split; assumption.
Qed.
Print Assumptions store_charges_quote_partial.

Lemma Inv_ids_fresh s : Inv_ids s -> orders s !! order_count s = None.
Proof.
  intros (Ho & _). destruct (orders s !! order_count s) as [o|] eqn:E; [|reflexivity].
  apply Ho in E. lia.
Qed.

Corollary store_charges_quote_inv : forall cx s m s' d, step cx s (OStore m) = (s', OutTx COk d) ->
  pay_not_escrow s -> Inv_ids s ->
  exists payer oid o, orders s !! oid = None /\ orders s' !! oid = Some o /\ oid = order_count s /\
    o_amount o = quote (if st_size m =? 0 then 1 else st_size m) (st_replica m) (st_duration m) /\ 0 < o_amount o /\
    payer <> macc ORDER /\
    balance s' payer = balance s payer - o_amount o /\ balance s' (macc ORDER) = balance s (macc ORDER) + o_amount o /\
    (forall a, a <> payer -> a <> macc ORDER -> bal s' !! a = bal s !! a).
Proof. intros cx s m s' d H Hp Hi. eapply store_charges_quote_partial; eauto using Inv_ids_fresh. Qed.
Print Assumptions store_charges_quote_inv.

(** * C04: the first completion *)
Lemma head_omap_some {A B} (f : A -> option B) l x :
  head (omap f l) = Some x -> exists a, In a l /\ f a = Some x.
Proof.
  induction l as [|a r IH]; simpl; [discriminate|].
  destruct (f a) as [b|] eqn:E; simpl.
  - intros H; inversion H; subst. exists a. split; [left; reflexivity | exact E].
  - intros H. destruct (IH H) as (a' & Hi & Hf). exists a'. split; [right; exact Hi | exact Hf].
Qed.

Lemma shard_by_sp_some s o sp sid sh :
  shard_by_sp s o sp = Some (sid, sh) -> In sid (o_shards o) /\ shards s !! sid = Some sh /\ sh_sp sh = sp.
Proof.
  unfold shard_by_sp. intros H. apply head_omap_some in H as (id & Hi & Hf).
  destruct (shards s !! id) as [sh0|] eqn:Es; [|discriminate].
  destruct (String.eqb (sh_sp sh0) sp) eqn:Eq; [|discriminate]. inversion Hf; subst.
  apply String.eqb_eq in Eq. repeat split; assumption.
Qed.

Lemma keeps_update_meta cx oid o : o_op o <> 2 -> keeps bal (update_meta cx oid o).
Proof.
  intros Hop. unfold update_meta. apply keeps_bind; [apply keeps_get|intros s0].
  destruct (negb _); [apply keeps_fail|]. destruct (metas s0 !! o_data o) as [em|]; [|apply keeps_fail].
  destruct (negb _); [apply keeps_fail|]. apply keeps_bind; [|intros; keeps_walk].
  destruct (o_op o =? 1); [apply keeps_ret|]. destruct (o_op o =? 2) eqn:E; [zb; contradiction|]. keeps_walk.
Qed.

Lemma keeps_extend_meta_duration data e : keeps bal (extend_meta_duration data e).
Proof.
  unfold extend_meta_duration, set_data_expire.
  repeat first [apply keeps_remove_data_expire; reflexivity | keeps_walk1].
Qed.

Lemma keeps_shard_pledge id sh price a :
  a <> sh_sp sh -> a <> macc NODE -> keeps (fun s => bal s !! a) (shard_pledge id sh price).
Proof.
  intros N1 N2. unfold shard_pledge. cbv zeta.
  repeat first [apply keeps_send_other; assumption | apply keeps_send_lenient_other; assumption | keeps_walk1].
Qed.

(* [o_op o <> 2]: a force-push order terminates the orders of the commit it replaces while
   it completes, which moves their refunds out of the market escrow in the same
   transaction; see [first_complete_deposits_refuted] below for the statement without it *)
Theorem first_complete_deposits_partial : forall cx s c p oid cid sz ok s' d o, step cx s (OComplete c p oid cid sz ok) = (s', OutTx COk d) ->
  orders s !! oid = Some o -> o_status o <> OrderCompleted ->
  (forall sid sh, shard_by_sp s o p = Some (sid, sh) -> sh_status sh = ShardWaiting) ->
  o_op o <> 2 -> p <> macc ORDER -> p <> macc MARKET ->
  balance s' (macc ORDER) = balance s (macc ORDER) - o_amount o /\ balance s' (macc MARKET) = balance s (macc MARKET) + o_amount o.
Proof.
  intros cx s c p oid cid sz ok s' d o H Ho Hst Hw Hop Hp1 Hp2.
  apply (step_tx_ok _ _ _ (sao_complete cx c p oid cid sz ok)) in H; [|reflexivity].
  unfold sao_complete in H. apply if_ok in H; [|discriminate]. (* InvalidShardSize *)
  rewrite bind_get in H.
  rewrite Ho in H. apply if_ok in H; [|discriminate]. (* InvalidProvider *)
  destruct (shard_by_sp s o p) as [[sid sh]|] eqn:Esp; [|discriminate].
  pose proof (Hw sid sh eq_refl) as Hsw. apply shard_by_sp_some in Esp as (_ & _ & Hsp).
  rewrite Hsw in H. change (ShardWaiting =? ShardCompleted) with false in H.
  change (ShardWaiting =? ShardWaiting) with true in H. change (ShardWaiting =? ShardMigrating) with false in H.
  cbn [negb andb] in H. cbv iota in H.
  apply if_ok in H; [|discriminate]. (* InvalidShardSize *)
  destruct (metas s !! o_data o) as [meta|]; [|discriminate].
  do 3 (apply if_ok in H; [|discriminate]). (* InvalidOperation, InvalidLastOrder, InvalidCid *)
  apply bind_ok in H as ([[sh1 ip] o'] & s1 & Hr & H).
  assert (Hr' : bal s1 = bal (move (macc ORDER) (macc MARKET) (o_amount o) s) /\ sh_sp sh1 = p).
  { apply (bind_keeps bal) in Hr as ([] & s2 & _ & K1 & Hr); [|unfold worker_append; keeps_walk].
    rewrite (proj2 (Z.eqb_neq _ _) Hst) in Hr.
    apply (bind_keeps bal) in Hr as ([] & s3 & _ & K2 & Hr); [|apply keeps_update_meta; exact Hop].
    apply bind_ok in Hr as ([] & s4 & Hmd & Hr).
    unfold market_deposit in Hmd. apply if_ok in Hmd; [|discriminate].
    apply send_strict_inv in Hmd as (_ & _ & ->). injection Hr as <- _ _ <-. split; [|exact Hsp].
    unfold move, balance. cbn. rewrite K2, K1. reflexivity. }
  destruct Hr' as (Hb1 & Hsp1). clear Hr.
  assert (Ko : forall a, a <> p -> a <> macc NODE -> bal s' !! a = bal s1 !! a).
  { intros a A1 A2. revert H. apply (keeps_ok (fun s => bal s !! a)).
    unfold set_expired_shard_block, increase_reputation.
    repeat first [apply keeps_shard_pledge; [cbn; rewrite Hsp1|]; assumption
                 | apply (keeps_proj bal (fun b => b !! a)), keeps_extend_meta_duration | keeps_walk1]. }
  unfold balance. rewrite !Ko, Hb1 by (first [congruence | discriminate]).
  split; [apply move_from | apply move_to]; discriminate.
Qed.
Print Assumptions first_complete_deposits_partial.

(** * Non-vacuity: a concrete run *)
Definition ex_cx : Ctx := {| cx_height := 5; cx_chain := "c"; cx_time := 0; cx_seed := 7 |}.
Definition ex_data : string := "0123456789abcdef0123456789abcdef0123".
Definition ex_did (payaddr : string) : DidState :=
  mkDid ∅ ∅ ∅ ∅ ∅ ∅ ∅ {[ "did:key:K1" := payaddr ]} ∅ ∅.
Definition ex_nparams : NParams := mkNParams 0 0 0 1 1 0 "" 0 0 0 1000.
Definition ex_pool : Pool := mkPool 10 0 0 0 0 0 10000000 0.
Definition ex_state (payaddr : string) (ords : gmap Z Order) : State :=
  mkState (ex_did payaddr)
          (<["G" := mkNode "" 10000 3 5 [] 0 ""]> (<["S" := mkNode "" 10000 13 5 [] 0 ""]> ∅))
          {[ "S" := mkPledge 10 0 0 0 10000000 0 ]}
          ∅ (Some ex_pool) None ∅ ∅ ∅ ex_nparams
          ords 1 ∅ 1 ∅ ∅ ∅ ∅ ∅ ∅
          (<[payaddr := 10000]> (<["S" := 1000]> ∅)) 11000 ∅ ∅ 0.
Definition ex_s0 : State := ex_state "P1" ∅.
Definition ex_sig : SigO := {| so_owner := Some ("key", "K1"); so_kid := Some ("key", "K1", ""); so_keys := ["K1"] |}.
Definition ex_store (op : Z) (commit : string) : StoreMsg :=
  {| st_creator := "G"; st_provider := "G"; st_owner := "did:key:K1"; st_pprovider := "G"; st_group := "";
     st_duration := 3600; st_replica := 1; st_timeout := 100; st_alias := "a"; st_data := ex_data; st_commit := commit;
     st_tags := []; st_cid := "cid"; st_rule := ""; st_ext := ""; st_size := 1000000; st_op := op; st_ro := [];
     st_paydid := ""; st_sig := ex_sig; st_cid_ok := true |}.
Definition ex_msg : StoreMsg := ex_store 1 ex_data.

Definition ex_s1 : State := fst (step ex_cx ex_s0 (OStore ex_msg)).
Definition ex_s2 : State := fst (step ex_cx ex_s1 (OCancel "G" "G" 1)).

Example ex_length : String.length ex_data = 36%nat. Proof. reflexivity. Qed.

Ltac run_compute := try apply step_to; vm_compute; reflexivity.
Ltac conj_compute := repeat match goal with |- _ /\ _ => split; [run_compute|] end; run_compute.

Example money_nonvacuous :
  step ex_cx ex_s0 (OStore ex_msg) = (ex_s1, OutTx COk "") /\
  (exists o, orders ex_s1 !! 1 = Some o /\ o_amount o = 3600 /\ o_shards o = [1] /\ o_status o = OrderDataReady) /\
  quote 1000000 1 3600 = 3600 /\
  balance ex_s0 "P1" = 10000 /\ balance ex_s1 "P1" = 6400 /\ balance ex_s1 (macc ORDER) = 3600 /\
  step ex_cx ex_s1 (OCancel "G" "G" 1) = (ex_s2, OutTx COk "") /\
  balance ex_s2 "P1" = 10000 /\ balance ex_s2 (macc ORDER) = 0 /\ orders ex_s2 !! 1 = None /\ shards ex_s2 !! 1 = None /\
  metas ex_s2 !! ex_data = None /\ expdata ex_s1 !! 3605 = Some [ex_data] /\ expdata ex_s2 !! 3605 = None.
Proof.
  split; [run_compute|].
  split; [eexists; conj_compute|].
  conj_compute.
Qed.
Print Assumptions money_nonvacuous.

Example ex_hyps : pay_not_escrow ex_s0 /\ Inv_ids ex_s0 /\ orders ex_s0 !! order_count ex_s0 = None.
Proof.
  split; [|split].
  - intros x a H. unfold pay_addr, ex_s0, ex_state, ex_did in H. cbn in H.
    apply lookup_singleton_Some in H as (_ & <-). discriminate.
  - split; intros id x H; cbn in H; rewrite lookup_empty in H; discriminate.
  - reflexivity.
Qed.

(** * Refutations *)
(* (a) The payment address of a DID is whatever address the registry holds; nothing in the
   model keeps it apart from the order escrow account. With [d_pay] pointing at
   "module:order" the charge is a self-transfer and no balance moves. (On the real chain a
   module account cannot sign the UpdatePaymentAddress / Binding message that stores it, so
   this state is not reachable there; it is a hypothesis the model needs.) *)
Definition exr_s0 : State := ex_state (macc ORDER) ∅.
Definition exr_s1 : State := fst (step ex_cx exr_s0 (OStore ex_msg)).
Theorem store_charges_quote_refuted : exists cx s m s' d, step cx s (OStore m) = (s', OutTx COk d) /\
  ~ exists payer oid o, orders s !! oid = None /\ orders s' !! oid = Some o /\ oid = order_count s /\
    o_amount o = quote (if st_size m =? 0 then 1 else st_size m) (st_replica m) (st_duration m) /\ 0 < o_amount o /\
    payer <> macc ORDER /\
    balance s' payer = balance s payer - o_amount o /\ balance s' (macc ORDER) = balance s (macc ORDER) + o_amount o /\
    (forall a, a <> payer -> a <> macc ORDER -> bal s' !! a = bal s !! a).
Proof.
  exists ex_cx, exr_s0, ex_msg, exr_s1, "". split; [run_compute|].
  intros (payer & oid & o & _ & _ & _ & _ & Hpos & _ & _ & Hb & _).
  assert (E : balance exr_s1 (macc ORDER) = balance exr_s0 (macc ORDER)) by (vm_compute; reflexivity).
  lia.
Qed.
Print Assumptions store_charges_quote_refuted.

(* (b) AppendOrder writes at the counter without looking: if the slot is taken (a state
   outside [Inv_ids]) the old order is overwritten, so "the id was unused" is not a
   consequence of acceptance *)
Definition exi_s0 : State := ex_state "P1" {[ 1 := zero_order ]}.
Definition exi_s1 : State := fst (step ex_cx exi_s0 (OStore ex_msg)).
Theorem store_charges_quote_refuted_ids : exists cx s m s' d, step cx s (OStore m) = (s', OutTx COk d) /\
  ~ exists payer oid o, orders s !! oid = None /\ orders s' !! oid = Some o /\ oid = order_count s /\
    o_amount o = quote (if st_size m =? 0 then 1 else st_size m) (st_replica m) (st_duration m) /\ 0 < o_amount o /\
    payer <> macc ORDER /\
    balance s' payer = balance s payer - o_amount o /\ balance s' (macc ORDER) = balance s (macc ORDER) + o_amount o /\
    (forall a, a <> payer -> a <> macc ORDER -> bal s' !! a = bal s !! a).
Proof.
  exists ex_cx, exi_s0, ex_msg, exi_s1, "". split; [run_compute|].
  intros (payer & oid & o & H1 & _ & -> & _). vm_compute in H1. discriminate.
Qed.
Print Assumptions store_charges_quote_refuted_ids.

(* (c) first completion of a force-push order (operation 2): UpdateMeta terminates the order
   of the replaced commit inside the same Complete transaction -- its unused payment goes
   market escrow -> order escrow -> payer -- so the market escrow does not grow by the new
   order's amount. Run: store, complete, force-push store, complete. *)
Definition fp_s2 : State := fst (step ex_cx ex_s1 (OComplete "S" "S" 1 "cid" 1000000 true)).
Definition fp_msg : StoreMsg := ex_store 2 (ex_data +:+ "|" +:+ "c2").
Definition fp_s3 : State := fst (step ex_cx fp_s2 (OStore fp_msg)).
Definition fp_s4 : State := fst (step ex_cx fp_s3 (OComplete "S" "S" 2 "cid" 1000000 true)).

Example fp_run :
  step ex_cx ex_s1 (OComplete "S" "S" 1 "cid" 1000000 true) = (fp_s2, OutTx COk "") /\
  step ex_cx fp_s2 (OStore fp_msg) = (fp_s3, OutTx COk "") /\
  step ex_cx fp_s3 (OComplete "S" "S" 2 "cid" 1000000 true) = (fp_s4, OutTx COk "") /\
  balance ex_s1 (macc ORDER) = 3600 /\ balance ex_s1 (macc MARKET) = 0 /\
  balance fp_s2 (macc ORDER) = 0 /\ balance fp_s2 (macc MARKET) = 3600 /\
  balance fp_s3 (macc ORDER) = 3600 /\ balance fp_s3 (macc MARKET) = 3600 /\ balance fp_s3 "P1" = 2800 /\
  balance fp_s4 (macc ORDER) = 0 /\ balance fp_s4 (macc MARKET) = 3600 /\ balance fp_s4 "P1" = 6400 /\
  orders fp_s4 !! 1 = None.
Proof. conj_compute. Qed.

Theorem first_complete_deposits_refuted :
  exists cx s c p oid cid sz ok s' d o, step cx s (OComplete c p oid cid sz ok) = (s', OutTx COk d) /\
    orders s !! oid = Some o /\ o_status o <> OrderCompleted /\
    (forall sid sh, shard_by_sp s o p = Some (sid, sh) -> sh_status sh = ShardWaiting) /\
    p <> macc ORDER /\ p <> macc MARKET /\
    ~ (balance s' (macc ORDER) = balance s (macc ORDER) - o_amount o /\ balance s' (macc MARKET) = balance s (macc MARKET) + o_amount o).
Proof.
  exists ex_cx, fp_s3, "S", "S", 2, "cid", 1000000, true, fp_s4, "". eexists.
  split; [apply fp_run|].
  split; [vm_compute; reflexivity|].
  split; [vm_compute; discriminate|].
  split; [intros sid sh Hs; vm_compute in Hs; inversion Hs; reflexivity|].
  split; [discriminate|]. split; [discriminate|].
  intros (_ & H). vm_compute in H. discriminate.
Qed.
Print Assumptions first_complete_deposits_refuted.

Example first_complete_nonvacuous :
  balance fp_s2 (macc ORDER) = balance ex_s1 (macc ORDER) - 3600 /\ balance fp_s2 (macc MARKET) = balance ex_s1 (macc MARKET) + 3600.
Proof.
  assert (Ho : exists o, orders ex_s1 !! 1 = Some o /\ o_amount o = 3600 /\ o_status o <> OrderCompleted /\ o_op o <> 2 /\
                         (forall sid sh, shard_by_sp ex_s1 o "S" = Some (sid, sh) -> sh_status sh = ShardWaiting)).
  { eexists. split; [vm_compute; reflexivity|]. split; [vm_compute; reflexivity|].
    split; [vm_compute; discriminate|]. split; [vm_compute; discriminate|].
    intros sid sh Hs. vm_compute in Hs. inversion Hs. reflexivity. }
  destruct Ho as (o & Ho & Ha & Hs & Hop & Hw). rewrite <- Ha.
  apply (first_complete_deposits_partial ex_cx ex_s1 "S" "S" 1 "cid" 1000000 true fp_s2 "" o);
    [apply fp_run | assumption || discriminate ..].
Qed.

(* C07 on the example: pledge one coin of storage, take it back; the shard collateral of the
   run above (360) went provider -> node escrow at the first completion and came back in
   full when the force-push terminated that order *)
Definition vs_s1 : State := fst (step ex_cx ex_s0 (OAddVstorage "S" 1000000)).
Definition vs_s2 : State := fst (step ex_cx vs_s1 (ORemoveVstorage "S" 1000000)).
Example vstorage_nonvacuous :
  step ex_cx ex_s0 (OAddVstorage "S" 1000000) = (vs_s1, OutTx COk "") /\
  balance vs_s1 "S" = 999 /\ balance vs_s1 (macc NODE) = 1 /\
  step ex_cx vs_s1 (ORemoveVstorage "S" 1000000) = (vs_s2, OutTx COk "") /\
  balance vs_s2 "S" = 1000 /\ balance vs_s2 (macc NODE) = 0 /\
  balance ex_s1 "S" = 1000 /\ balance fp_s2 "S" = 640 /\ balance fp_s2 (macc NODE) = 360 /\
  balance fp_s4 "S" = 640 /\ balance fp_s4 (macc NODE) = 360.
Proof. conj_compute. Qed.
