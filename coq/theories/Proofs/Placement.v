(* C15 at the call sites: the providers chosen for a retry after a timeout are fresh for the order. *)
From SaoVerif Require Import Base.Prelude Base.Ints Base.Dec Model.Did Model.Types Model.Monad Model.Bank Model.Select
     Model.Node Model.Storage Model.Sao Model.Hooks Model.App Model.Spec Proofs.SelectFacts Proofs.SelectApp Proofs.Frame Model.Inv Model.Monitors Proofs.RefInt Proofs.Schedule.
From RecordUpdate Require Import RecordUpdate.
Import RecordSetNotations.

(* The re-assignment loop of HandleTimeoutOrder under a name. The body is the text of the [fix] in
   [Sao.handle_timeout_order] and has to stay convertible with it: the proofs install the name by [change]. *)
Definition reassign (oid : Z) : list (string * (Z * Shard)) -> Order -> M Order :=
  fix go (l : list (string * (Z * Shard))) (oacc : Order) : M Order :=
  match l with
  | [] => ret oacc
  | (newsp, (sid, sh)) :: r =>
      modify (fun s => s <| shards ::= <[sid := sh <| sh_status := ShardTimeout |>]> |>) ;;;
      nid <- new_shard_task oid oacc newsp ;;
      go r (oacc <| o_shards := o_shards oacc ++ [nid] |>)
  end.
Lemma reassign_step oid newsp sid sh r oacc t :
  reassign oid ((newsp, (sid, sh)) :: r) oacc t =
  reassign oid r (oacc <| o_shards := o_shards oacc ++ [shard_count t] |>)
    (t <| shards ::= <[sid := sh <| sh_status := ShardTimeout |>]> |>
       <| shards ::= <[shard_count t := mkShard oid ShardWaiting (o_size oacc) (o_cid oacc) 0 "" newsp 0 0 []]> |>
       <| shard_count := u64 (shard_count t + 1) |>).
Proof. reflexivity. Qed.

Lemma set_shards_twice (o : Order) a b : o <| o_shards := a |> <| o_shards := b |> = o <| o_shards := b |>.
Proof. destruct o; reflexivity. Qed.

Definition fresh_above (t : State) : Prop := forall id, shard_count t <= id -> shards t !! id = None.

Lemma fresh_of_ids s : Inv_ids s -> fresh_above s.
Proof.
  intros Hm id Hid. destruct (shards s !! id) as [x|] eqn:E; [|reflexivity].
  destruct Hm as [_ Hm]. apply Hm in E. lia.
Qed.

Lemma fresh_above_lt t id : fresh_above t -> is_Some (shards t !! id) -> id < shard_count t.
Proof. intros Hf [y Hy]. destruct (Z_lt_le_dec id (shard_count t)) as [Hlt|Hge]; [exact Hlt|]. rewrite (Hf id Hge) in Hy. discriminate. Qed.

(* [l] has entries (new provider, (id, shard)). A listed shard need only be present with the listed provider, not
   equal to the stored one: an id may be listed twice. *)
Lemma reassign_spec oid : forall l oacc t o' t',
  reassign oid l oacc t = Ok o' t' ->
  0 <= shard_count t -> shard_count t + Z.of_nat (length l) < two64 -> fresh_above t ->
  (forall x, In x l -> exists sh0, shards t !! x.2.1 = Some sh0 /\ sh_sp sh0 = sh_sp x.2.2) ->
  o' = oacc <| o_shards := o_shards oacc ++ map (fun k => shard_count t + Z.of_nat k) (seq 0 (length l)) |> /\
  shard_count t' = shard_count t + Z.of_nat (length l) /\ fresh_above t' /\ pledges t' = pledges t /\
  (forall id, id < shard_count t -> sh_sp <$> shards t' !! id = sh_sp <$> shards t !! id) /\
  (forall id, id < shard_count t -> (forall x, In x l -> x.2.1 <> id) -> shards t' !! id = shards t !! id) /\
  (forall k x, l !! k = Some x -> exists sh', shards t' !! (shard_count t + Z.of_nat k) = Some sh' /\
       sh_sp sh' = x.1 /\ sh_order sh' = oid /\ sh_status sh' = ShardWaiting).
Proof.
  induction l as [|[newsp [sid sh]] r IH]; intros oacc t o' t' H H0 Hb Hf Hsp.
  { injection H as <- <-. cbn. rewrite app_nil_r. split; [destruct oacc; reflexivity|].
    split; [lia|]. split; [exact Hf|]. split; [reflexivity|]. split; [reflexivity|]. split; [reflexivity|].
    intros k x Hk. rewrite lookup_nil in Hk. discriminate. }
  rewrite reassign_step in H. cbn [length] in Hb.
  set (c := shard_count t) in *. set (new := mkShard oid ShardWaiting (o_size oacc) (o_cid oacc) 0 "" newsp 0 0 []) in H.
  match type of H with reassign oid r _ ?st = _ => set (t1 := st) in H end.
  assert (Hc1 : shard_count t1 = c + 1) by (apply u64_id; unfold two64 in *; lia).
  assert (Hsh1 : shards t1 = <[c := new]> (<[sid := sh <| sh_status := ShardTimeout |>]> (shards t))) by reflexivity.
  destruct (Hsp _ (or_introl eq_refl)) as (sh0 & Esid & Esp0). cbn in Esid, Esp0.
  assert (Hs : sid < c) by (apply fresh_above_lt; [exact Hf|rewrite Esid; eexists; reflexivity]).
  assert (Hlow : forall x, In x r -> x.2.1 < c).
  { intros x Hx. destruct (Hsp x (or_intror Hx)) as (y & Ey & _). apply fresh_above_lt; [exact Hf|rewrite Ey; eexists; reflexivity]. }
  assert (Hsp1 : forall j, j < c -> sh_sp <$> shards t1 !! j = sh_sp <$> shards t !! j).
  { intros j Hj. rewrite Hsh1, lookup_insert_ne by lia. destruct (decide (j = sid)) as [->|Hne].
    - rewrite lookup_insert, Esid. cbn. rewrite Esp0. reflexivity.
    - rewrite lookup_insert_ne by congruence. reflexivity. }
  destruct (IH _ t1 o' t' H) as (Eo & Hc & Hf' & Hp & Hsp' & Hold & Hnew).
  { lia. } { rewrite Hc1. lia. }
  { intros id Hid. rewrite Hc1 in Hid. rewrite Hsh1, !lookup_insert_ne by lia. apply Hf. fold c. lia. }
  { intros x Hx. destruct (Hsp x (or_intror Hx)) as (y & Ey & Espy). pose proof (Hsp1 _ (Hlow x Hx)) as E. rewrite Ey in E.
    destruct (shards t1 !! x.2.1) as [z|]; [|discriminate E]. injection E as E. exists z. split; [reflexivity|congruence]. }
  rewrite Hc1 in Hc, Hsp', Hold, Hnew.
  split.
  { rewrite Eo, set_shards_twice. cbn [length seq map]. rewrite <- seq_shift, map_map, Z.add_0_r.
    change (o_shards (oacc <| o_shards := o_shards oacc ++ [c] |>)) with (o_shards oacc ++ [c]). rewrite <- app_assoc.
    rewrite (map_ext _ (fun k => c + Z.of_nat (S k))) by (intros k; lia). reflexivity. }
  split; [cbn [length]; lia|]. split; [exact Hf'|]. split; [exact Hp|]. split.
  { intros id Hid. rewrite Hsp' by lia. apply Hsp1, Hid. }
  split.
  { intros id Hid Hn. rewrite Hold; [|lia|intros x Hx; apply Hn; right; exact Hx].
    rewrite Hsh1, lookup_insert_ne by lia. apply lookup_insert_ne. exact (Hn _ (or_introl eq_refl)). }
  intros [|k] x Hk; cbn in Hk.
  - injection Hk as <-. exists new. split; [|cbn; auto]. rewrite Z.add_0_r.
    rewrite Hold; [rewrite Hsh1; apply lookup_insert|lia|]. intros x Hx E. specialize (Hlow x Hx). lia.
  - destruct (Hnew k x Hk) as (sh' & E & P). exists sh'. split; [|exact P].
    replace (c + Z.of_nat (S k)) with (c + 1 + Z.of_nat k) by lia. exact E.
Qed.

(** * no other path of the timeout check creates a shard *)
Lemma sh_send_strict a b n : keeps shards (send_strict a b n).
Proof. intros s. unfold send_strict. destruct (_ <=? _); [reflexivity|]. destruct (_ <? _); reflexivity. Qed.
Global Hint Resolve sh_send_strict : keeps.
Lemma keeps_shards_of_core {A} (m : M A) : keeps core m -> keeps shards m.
Proof. exact (keeps_weaken core (fun c => c.1.1.1.1.1) m). Qed.
Lemma sh_coin_sub a b : keeps shards (coin_sub a b).
Proof. apply keeps_shards_of_core, keeps_core_coin_sub. Qed.
Global Hint Resolve sh_coin_sub : keeps.
Lemma sh_remove_data_expire d h : keeps shards (remove_data_expire d h).
Proof. apply keeps_shards_of_core, keeps_core_remove_data_expire. Qed.
Lemma sh_set_data_expire d h : keeps shards (set_data_expire d h).
Proof. apply keeps_shards_of_core, keeps_core_set_data_expire. Qed.
Global Hint Resolve sh_remove_data_expire sh_set_data_expire : keeps.
Lemma sh_reset_meta_duration cx d m : keeps shards (reset_meta_duration cx d m).
Proof. unfold reset_meta_duration. keeps_go. Qed.
Global Hint Resolve sh_reset_meta_duration : keeps.
Lemma sh_cancel_order cx oid : keeps shards (cancel_order cx oid).
Proof. unfold cancel_order, refund_order, rollback_meta. keeps_go. Qed.
Global Hint Resolve sh_cancel_order : keeps.
Lemma sh_set_timeout_block oid h : keeps shards (set_timeout_block oid h).
Proof. unfold set_timeout_block. keeps_go. Qed.
Global Hint Resolve sh_set_timeout_block : keeps.

Definition Rsub (s s' : State) : Prop := forall id, shards s !! id = None -> shards s' !! id = None.
Global Instance Rsub_po : PreOrder Rsub.
Proof. split; [intros s id H; exact H|intros a b c H1 H2 id H; auto]. Qed.
Lemma keeps_Rsub {A} (m : M A) : keeps shards m -> mok Rsub true m.
Proof. intros H s. specialize (H s). destruct (m s); auto; intros id Hn; rewrite H; exact Hn. Qed.
Lemma remove_shards_sub ids : mok Rsub true (remove_shards ids).
Proof.
  intros s. unfold remove_shards, modify. intros id Hn. unfold set; cbn.
  revert Hn. generalize (shards s). induction ids as [|x r IH]; intros m Hn; cbn [fold_left]; [exact Hn|].
  apply IH. destruct (decide (id = x)) as [->|Hne]; [apply lookup_delete|rewrite lookup_delete_ne by congruence; exact Hn].
Qed.

Lemma remove_then_keeps ids (m : M unit) : keeps shards m -> mok Rsub true (remove_shards ids ;;; m).
Proof. intros K. apply mok_bind; try exact _; [apply remove_shards_sub|intros; apply keeps_Rsub, K]. Qed.

Lemma random_sp_m_exact cx count ignore size t sps t1 :
  random_sp_m cx count ignore size t = Ok sps t1 -> exists r, t1 = t <| round := r |>.
Proof.
  unfold random_sp_m, bind, get. destruct (random_sp _ _ _ _ _ _ _) as [[c r]| |]; try discriminate.
  unfold modify, ret. intros H. injection H as _ <-. eexists; reflexivity.
Qed.

Lemma combine_lookup {A B} (l1 : list A) (l2 : list B) k x :
  combine l1 l2 !! k = Some x -> l1 !! k = Some x.1 /\ l2 !! k = Some x.2.
Proof.
  revert l2 k. induction l1 as [|a l1 IH]; intros [|b l2] [|k] H; cbn in *; try discriminate.
  - injection H as <-. split; reflexivity.
  - apply IH, H.
Qed.

(* the re-assignment at its call site, in terms of the state the check started from *)
Lemma timeout_reassign_spec cx oid s o rand s1 o' t' :
  let tshards := filter (fun x : Z * Shard => sh_status x.2 =? ShardWaiting) (listed s o) in
  let l := combine rand tshards in
  random_sp_m cx (Z.of_nat (length tshards)) (map (fun x => sh_sp x.2) (listed s o)) (i64 (o_size o)) s = Ok rand s1 ->
  reassign oid l o s1 = Ok o' t' ->
  0 <= cx_seed cx -> 0 <= shard_count s -> shard_count s + Z.of_nat (length (o_shards o)) < two64 -> fresh_above s ->
  NoDup rand /\
  (forall a, In a rand -> exists n, nodes s !! a = Some n /\ eligible (pledges s) (i64 (o_size o)) (mkCand a n) = true /\
                                    in_list a (map (fun x : Z * Shard => sh_sp x.2) (listed s o)) = false) /\
  (length l <= length (o_shards o))%nat /\
  o' = o <| o_shards := o_shards o ++ map (fun k => shard_count s + Z.of_nat k) (seq 0 (length l)) |> /\
  shard_count t' = shard_count s + Z.of_nat (length l) /\ fresh_above t' /\ pledges t' = pledges s /\
  (forall id, id < shard_count s -> sh_sp <$> shards t' !! id = sh_sp <$> shards s !! id) /\
  (forall k x, l !! k = Some x -> exists sh', shards t' !! (shard_count s + Z.of_nat k) = Some sh' /\
       sh_sp sh' = x.1 /\ sh_order sh' = oid /\ sh_status sh' = ShardWaiting).
Proof.
  intros tshards l Hr Hre Hseed H0 Hb Hf.
  destruct (random_sp_m_spec _ _ _ _ _ _ _ Hseed Hr) as (Hnd & Hall & _ & _ & Hp1 & _ & Hs1 & _).
  destruct (random_sp_m_exact _ _ _ _ _ _ _ Hr) as (r & E).
  assert (Hc1 : shard_count s1 = shard_count s) by (rewrite E; reflexivity).
  assert (Hl_len : (length l <= length (o_shards o))%nat).
  { unfold l. rewrite combine_length. etransitivity; [apply Nat.le_min_r|].
    etransitivity; [apply filter_length|]. apply omap_length_le. }
  destruct (reassign_spec oid l o s1 o' t' Hre) as (Eo & Hc & Hf' & Hp & Hsp & _ & Hnew).
  { rewrite Hc1; exact H0. } { rewrite Hc1. lia. } { intros i Hi. rewrite Hs1. apply Hf. rewrite <- Hc1. exact Hi. }
  { intros [a [i shx]] Hx. apply in_combine_r, elem_of_list_In, elem_of_list_filter in Hx as [_ Hx].
    apply elem_of_list_In, In_listed in Hx as [_ Hx]. rewrite Hs1. exists shx. split; [exact Hx|reflexivity]. }
  rewrite Hc1 in Eo, Hc, Hsp, Hnew. rewrite Hs1 in Hsp. rewrite Hp1 in Hp. auto 10.
Qed.

(* C15 for the retry after a timeout: every shard the timeout check creates belongs to the
   order, waits for its provider, and that provider is eligible, is not a provider that already holds or has
   timed out on a shard of the order, and differs from the providers of the other new shards *)
Theorem timeout_new_shards_fresh : forall cx oid s s' o,
  handle_timeout_order cx oid s = Ok tt s' -> orders s !! oid = Some o -> 0 <= cx_seed cx ->
  0 <= shard_count s -> shard_count s + Z.of_nat (length (o_shards o)) < two64 -> fresh_above s ->
  forall id sh', shards s' !! id = Some sh' -> shards s !! id = None ->
    sh_order sh' = oid /\ sh_status sh' = ShardWaiting /\
    (forall id0 sh0, In id0 (o_shards o) -> shards s !! id0 = Some sh0 -> sh_sp sh0 <> sh_sp sh') /\
    (exists n, nodes s !! sh_sp sh' = Some n /\ eligible (pledges s) (i64 (o_size o)) (mkCand (sh_sp sh') n) = true) /\
    (forall id2 sh2, id2 <> id -> shards s' !! id2 = Some sh2 -> shards s !! id2 = None -> sh_sp sh2 <> sh_sp sh').
Proof.
  intros cx oid s s' o H Ho Hseed H0 Hb Hf id sh' Hnew Hold.
  assert (Hno : forall (m : M unit) t, shards t = shards s -> m t = Ok tt s' -> mok Rsub true m -> False).
  { intros m t Et E Hm. specialize (Hm t). rewrite E in Hm. specialize (Hm id). rewrite Et in Hm. rewrite (Hm Hold) in Hnew. discriminate. }
  unfold handle_timeout_order in H. rewrite bind_get, Ho in H.
  apply if_ok in H; [|intros H1; destruct (Hno _ s eq_refl H1); apply keeps_Rsub; keeps_go].
  apply if_ok in H; [|intros H1; destruct (Hno _ s eq_refl H1); apply keeps_Rsub; keeps_go].
  cbv zeta in H. fold (listed s o) in H.
  set (tshards := filter _ (listed s o)) in H.
  set (o1 := o <| o_replica := _ |> <| o_shards := _ |>) in H.
  apply if_ok in H; [|intros H1; destruct (Hno _ s eq_refl H1); apply remove_then_keeps; keeps_go].
  apply bind_ok in H. destruct H as (rand & s1 & Hr & H).
  destruct rand as [|r0 rand].
  { destruct (random_sp_m_exact _ _ _ _ _ _ _ Hr) as (r & E). destruct (Hno _ s1 ltac:(rewrite E; reflexivity) H).
    destruct (_ <? _); [|apply keeps_Rsub; keeps_go]. destruct (negb _); apply remove_then_keeps; keeps_go. }
  match type of H with bind (?F ?l0 ?o0) _ _ = _ => change (F l0 o0) with (reassign oid l0 o0) in H end.
  apply bind_ok in H. destruct H as (o' & t' & Hre & H). rewrite bind_modify in H. injection H as <-.
  destruct (timeout_reassign_spec cx oid s o (r0 :: rand) s1 o' t' Hr Hre Hseed H0 Hb Hf) as (Hnd & Hall & _ & _ & Hc & Hf' & _ & Hsp & Hnew').
  fold tshards in Hall, Hc, Hnew'. set (l := combine (r0 :: rand) tshards) in *.
  (* a shard that was not there sits above the old counter, at the place of some entry of [l] *)
  assert (Hk : forall i shi, shards t' !! i = Some shi -> shards s !! i = None ->
            exists k x, i = shard_count s + Z.of_nat k /\ l !! k = Some x /\ sh_sp shi = x.1 /\ sh_order shi = oid /\ sh_status shi = ShardWaiting).
  { intros i shi Hi Hn. destruct (Z_lt_le_dec i (shard_count s)) as [Hlt|Hge].
    { specialize (Hsp i Hlt). rewrite Hi, Hn in Hsp. discriminate. }
    destruct (Z_lt_le_dec i (shard_count t')) as [Hlt2|Hge2]; [|rewrite (Hf' i Hge2) in Hi; discriminate].
    rewrite Hc in Hlt2. exists (Z.to_nat (i - shard_count s)).
    destruct (lookup_lt_is_Some_2 l (Z.to_nat (i - shard_count s))) as [x Hx]; [lia|]. exists x.
    destruct (Hnew' _ x Hx) as (shk & E & P).
    replace (shard_count s + Z.of_nat (Z.to_nat (i - shard_count s))) with i in E by lia. rewrite Hi in E. injection E as <-.
    split; [lia|]. split; [exact Hx|exact P]. }
  destruct (Hk id sh' Hnew Hold) as (k & x & Eid & Hx & Hsp' & Hord & Hst).
  split; [exact Hord|]. split; [exact Hst|].
  destruct (combine_lookup _ _ _ _ Hx) as [Hx1 _].
  assert (Hin : In x.1 (r0 :: rand)) by (apply elem_of_list_In, elem_of_list_lookup; exists k; exact Hx1).
  destruct (Hall _ Hin) as (n & Hn & Hel & Hig). rewrite Hsp'.
  split.
  { intros id0 sh0 Hid0 Hsh0 E. apply in_list_false in Hig. apply Hig, elem_of_list_In.
    apply in_map_iff. exists (id0, sh0). split; [exact E|]. apply In_listed. split; [exact Hid0|exact Hsh0]. }
  split; [exists n; split; [exact Hn|exact Hel]|].
  intros id2 sh2 Hne Hnew2 Hold2 E.
  destruct (Hk id2 sh2 Hnew2 Hold2) as (k2 & x2 & Eid2 & Hx2 & Hsp2 & _).
  destruct (combine_lookup _ _ _ _ Hx2) as [Hy1 _].
  assert (k2 = k); [|subst k2; lia].
  eapply NoDup_lookup; [exact Hnd|exact Hy1|]. rewrite Hx1. f_equal. congruence.
Qed.
Print Assumptions timeout_new_shards_fresh.

(** * non-vacuity *)
(* [W.s1]: the order of RefInt.W before its provider completed; height 105 is its first timeout check *)
Example timeout_reassign_nonvacuous :
  exists s' o, handle_timeout_order (W.cxh 105) 1 W.s1 = Ok tt s' /\ orders W.s1 !! 1 = Some o /\
    fresh_above W.s1 /\ shard_count W.s1 = 2 /\ shards W.s1 !! 2 = None /\
    (exists sh, shards W.s1 !! 1 = Some sh /\ sh_sp sh = "T") /\
    (exists sh', shards s' !! 2 = Some sh' /\ sh_sp sh' = "S" /\ sh_status sh' = ShardWaiting) /\
    (exists sh1, shards s' !! 1 = Some sh1 /\ sh_status sh1 = ShardTimeout).
Proof.
  (* the check is run once, on the closed state; the rest reads the statement off what the run shows *)
  assert (V : match handle_timeout_order (W.cxh 105) 1 W.s1 with
              | Ok _ s' => Some (mon_ids W.s1, shard_count W.s1, shards W.s1 !! 2, sh_sp <$> shards W.s1 !! 1,
                                 (fun _ => tt) <$> orders W.s1 !! 1, sh_status <$> shards s' !! 1,
                                 (fun sh => (sh_sp sh, sh_status sh)) <$> shards s' !! 2)
              | _ => None
              end = Some (true, 2, None, Some "T", Some tt, Some ShardTimeout, Some ("S", ShardWaiting)))
    by (vm_compute; reflexivity).
  revert V. generalize W.s1. intros s V.
  destruct (handle_timeout_order (W.cxh 105) 1 s) as [[] s'| | |] eqn:E; try discriminate V.
  injection V as Hm Hc Hn HT Ho H1 H2.
  destruct (orders s !! 1) as [o|]; [|discriminate Ho].
  destruct (shards s !! 1) as [sh|]; [|discriminate HT]. injection HT as HT.
  destruct (shards s' !! 1) as [sh1|] eqn:E1; [|discriminate H1]. injection H1 as H1.
  destruct (shards s' !! 2) as [sh'|] eqn:E2; [|discriminate H2]. injection H2 as HS HW.
  exists s', o. split; [reflexivity|]. split; [reflexivity|]. split; [exact (fresh_of_ids s (mon_ids_sound s Hm))|].
  split; [exact Hc|]. split; [exact Hn|].
  split; [exists sh; split; [reflexivity|exact HT]|].
  split; [exists sh'; split; [exact E2|split; [exact HS|exact HW]]|exists sh1; split; [exact E1|exact H1]].
Qed.
