(* [sum_map f m], the sum of [f] over the entries of a table: how it changes with one entry, and
   how two sums over the same table compare. *)
From SaoVerif Require Import Base.Prelude Model.Spec.

Section sum_map.
  Context {K : Type} `{Countable K} {A : Type}.
  Implicit Types (f g h : A -> Z) (m : gmap K A).

  Lemma sum_map_empty f : sum_map f (∅ : gmap K A) = 0.
  Proof. unfold sum_map. apply map_fold_empty. Qed.

  Lemma sum_map_insert f m k v :
    sum_map f (<[k:=v]> m) = sum_map f m - (match m !! k with Some x => f x | None => 0 end) + f v.
  Proof.
    assert (Hi : forall m' x, m' !! k = None -> sum_map f (<[k:=x]> m') = f x + sum_map f m').
    { intros m' x E. apply (map_fold_insert_L (fun (_ : K) (a : A) (acc : Z) => f a + acc) 0 k x m'); [intros; lia|exact E]. }
    destruct (m !! k) as [x|] eqn:E.
    - rewrite <- (insert_delete_insert m k v). rewrite <- (insert_delete m k x E) at 2.
      rewrite !Hi by apply lookup_delete. lia.
    - rewrite Hi by exact E. lia.
  Qed.

  Lemma sum_map_insert_fresh f m k v : m !! k = None -> sum_map f (<[k:=v]> m) = sum_map f m + f v.
  Proof. intros E. rewrite sum_map_insert, E. lia. Qed.

  Lemma sum_map_delete f m k :
    sum_map f (delete k m) = sum_map f m - (match m !! k with Some x => f x | None => 0 end).
  Proof.
    destruct (m !! k) as [x|] eqn:E.
    - rewrite <- (insert_delete m k x E) at 2. rewrite sum_map_insert_fresh by apply lookup_delete. lia.
    - rewrite delete_notin by exact E. lia.
  Qed.

  Lemma sum_map_ind2 f g (P : Z -> Z -> Prop) m :
    P 0 0 -> (forall k x a b, m !! k = Some x -> P a b -> P (a + f x) (b + g x)) ->
    P (sum_map f m) (sum_map g m).
  Proof.
    intros H0 Hs. induction m as [|k x m Hk IH] using map_ind.
    - rewrite !sum_map_empty. exact H0.
    - rewrite !sum_map_insert_fresh by exact Hk. apply (Hs k); [apply lookup_insert|]. apply IH.
      intros j y a b Hj. apply (Hs j). rewrite lookup_insert_ne; [exact Hj|]. intros ->. congruence.
  Qed.

  Lemma sum_map_nonneg f m : (forall k x, m !! k = Some x -> 0 <= f x) -> 0 <= sum_map f m.
  Proof. intros Hf. apply (sum_map_ind2 f f (fun a _ => 0 <= a)); [lia|]. intros k x a _ Hk Ha. specialize (Hf k x Hk). lia. Qed.

  Lemma sum_map_ext f g m : (forall k x, m !! k = Some x -> f x = g x) -> sum_map f m = sum_map g m.
  Proof. intros Hfg. apply (sum_map_ind2 f g eq); [reflexivity|]. intros k x a b Hk ->. rewrite (Hfg k x Hk). reflexivity. Qed.

  Lemma sum_map_linear a g h m : sum_map (fun p => a * g p + h p) m = a * sum_map g m + sum_map h m.
  Proof.
    induction m as [|k x m Hk IH] using map_ind.
    - rewrite !sum_map_empty. lia.
    - rewrite !sum_map_insert_fresh by exact Hk. rewrite IH. lia.
  Qed.

  Lemma sum_map_scale c f g m : (forall k x, m !! k = Some x -> f x = c * g x) -> sum_map f m = c * sum_map g m.
  Proof. intros Hfg. apply (sum_map_ind2 f g (fun a b => a = c * b)); [lia|]. intros k x a b Hk ->. rewrite (Hfg k x Hk). lia. Qed.

  Lemma sum_map_zero f m : (forall k x, m !! k = Some x -> f x = 0) -> sum_map f m = 0.
  Proof. intros Hf. rewrite (sum_map_scale 0 f f m); [lia|]. intros k x Hk. rewrite (Hf k x Hk). lia. Qed.

  Lemma sum_map_mono f m : forall m',
    (forall k, match m' !! k with Some x => f x | None => 0 end <= match m !! k with Some x => f x | None => 0 end) ->
    sum_map f m' <= sum_map f m.
  Proof.
    intros m'. revert m. induction m' as [|i x m' Hi IH] using map_ind; intros m Hp.
    - rewrite sum_map_empty. apply sum_map_nonneg. intros k y Hk. specialize (Hp k).
      rewrite lookup_empty, Hk in Hp. exact Hp.
    - rewrite sum_map_insert_fresh by exact Hi.
      pose proof (sum_map_delete f m i) as E. pose proof (Hp i) as Hpi. rewrite lookup_insert in Hpi.
      enough (sum_map f m' <= sum_map f (delete i m)) by lia.
      apply IH. intros k. destruct (decide (k = i)) as [->|Hne].
      + rewrite lookup_delete, Hi. lia.
      + rewrite lookup_delete_ne by congruence. specialize (Hp k).
        rewrite lookup_insert_ne in Hp by congruence. exact Hp.
  Qed.

  Lemma sum_map_ext_key f m m' :
    (forall k, match m' !! k with Some x => f x | None => 0 end = match m !! k with Some x => f x | None => 0 end) ->
    sum_map f m' = sum_map f m.
  Proof. intros Hp. apply Z.le_antisymm; apply sum_map_mono; intros k; rewrite Hp; lia. Qed.
End sum_map.
