(* C09 / C10 -- authorisation: only owner- or grantee-signed requests change a data
   model, actors act only for themselves, who pays for an order. Proved of the model
   ([Model/Sao.v], tied to x/sao by the step-wise correspondence check) against the
   handler-independent vocabulary of [Model/Spec.v]. *)
From SaoVerif Require Import Base.Prelude Base.Ints Base.Dec Model.Did Model.Types Model.Monad Model.Bank Model.Select
     Model.Node Model.Storage Model.Sao Model.Hooks Model.App Model.Spec Proofs.Outcome.
From RecordUpdate Require Import RecordUpdate.
Import RecordSetNotations.

(** * verification is sound *)
Lemma In_in_list x l : In x l -> in_list x l = true.
Proof. apply in_list_In. Qed.

Lemma verify_sig_signed s owner so d :
  (forall oid, so_owner so = Some ("sid", oid) -> owner = "did:sid:" +:+ oid) ->
  verify_sig s owner so = Some d -> d = owner /\ signed_by s owner so.
Proof.
  intros Hsane H. unfold verify_sig in H.
  destruct (so_owner so) as [[om oid]|] eqn:Eo; [|discriminate].
  destruct (so_kid so) as [[[km kid] kq]|] eqn:Ek; [|discriminate].
  destruct (String.eqb ("did:" +:+ km +:+ ":" +:+ kid) owner) eqn:Eown; simpl in H; [|discriminate].
  apply String.eqb_eq in Eown.
  destruct (String.eqb om "key") eqn:Eom.
  - destruct (String.eqb km "key") eqn:Ekm; simpl in H; [|discriminate].
    destruct (in_list kid (so_keys so)) eqn:Ein; [|discriminate].
    inversion H; subst d. split; [exact Eown|].
    split; [exists km, kid, kq; split; [exact Ek|exact Eown]|].
    exists kid. split; [apply in_list_In; exact Ein|].
    left. apply String.eqb_eq in Ekm. subst km. rewrite <- Eown. reflexivity.
  - destruct (String.eqb om "sid") eqn:Eos; [|discriminate].
    destruct (String.eqb km "sid") eqn:Ekm; simpl in H; [|discriminate].
    destruct (version_info kq) as [v|] eqn:Ev; [|discriminate].
    destruct (is_version_of (did s) oid v) eqn:Eiv; simpl in H; [|discriminate].
    destruct (d_doc (did s) !! v) as [keys|] eqn:Edoc; [|discriminate].
    destruct (existsb (fun k : string * string => in_list k.2 (so_keys so)) keys) eqn:Eex; [|discriminate].
    inversion H; subst d. split; [exact Eown|].
    split; [exists km, kid, kq; split; [exact Ek|exact Eown]|].
    apply existsb_exists in Eex. destruct Eex as [[nm k] [Hin Hk]]. simpl in Hk.
    exists k. split; [apply in_list_In; exact Hk|].
    right. exists oid, v, keys, nm.
    apply String.eqb_eq in Eos. subst om.
    split; [exact (Hsane _ eq_refl)|]. split; [exact Eiv|]. split; [exact Edoc|exact Hin].
Qed.

Theorem verify_sig_sound : forall s owner so d,
  sig_sane owner so -> verify_sig s owner so = Some d -> d = owner /\ signed_by s owner so.
Proof. intros s owner so d Hsane. apply verify_sig_signed. intros oid Ho. exact (Hsane _ _ Ho). Qed.
Print Assumptions verify_sig_sound.

(* for did:key owners the parser assumption is not needed *)
Theorem verify_sig_sound_key : forall s owner so d oid,
  so_owner so = Some ("key", oid) -> verify_sig s owner so = Some d -> d = owner /\ signed_by s owner so.
Proof. intros s owner so d oid Eo. apply verify_sig_signed. intros oid' Ho. rewrite Eo in Ho. discriminate Ho. Qed.
Print Assumptions verify_sig_sound_key.

Lemma may_update_write em d : may_update em d = true -> may_write em d.
Proof.
  unfold may_update, may_write. intros H. apply orb_true_iff in H. destruct H as [H|H].
  - left. apply String.eqb_eq. exact H.
  - right. apply in_list_In. exact H.
Qed.

(** * frame infrastructure *)
Section Keeps.
  Context {B : Type} (f : State -> B).

  Definition keeps {A} (m : M A) : Prop :=
    forall s, match m s with Ok _ s' | Err _ s' => f s' = f s | _ => True end.

  Lemma keeps_ret {A} (a : A) : keeps (ret a).
  Proof. intros s. reflexivity. Qed.
  Lemma keeps_fail {A} e : keeps (@fail A e).
  Proof. intros s. reflexivity. Qed.
  Lemma keeps_panic {A} e : keeps (@panic A e).
  Proof. intros s. exact I. Qed.
  Lemma keeps_hang {A} : keeps (fun _ : State => @Hang A).
  Proof. intros s. exact I. Qed.
  Lemma keeps_get : keeps get.
  Proof. intros s. reflexivity. Qed.
  Lemma keeps_gets {A} (g : State -> A) : keeps (gets g).
  Proof. intros s. reflexivity. Qed.
  Lemma keeps_modify g : (forall s, f (g s) = f s) -> keeps (modify g).
  Proof. intros H s. simpl. apply H. Qed.
  Lemma keeps_bind_ok {A C} (P : A -> Prop) (m : M A) (k : A -> M C) :
    keeps m -> (forall s a s', m s = Ok a s' -> P a) -> (forall a, P a -> keeps (k a)) -> keeps (bind m k).
  Proof.
    intros Hm HP Hk s. unfold bind. specialize (Hm s). specialize (HP s). destruct (m s) as [a s1|e s1| |]; auto.
    specialize (Hk a (HP _ _ eq_refl) s1). destruct (k a s1); auto; congruence.
  Qed.
  Lemma keeps_bind {A C} (m : M A) (k : A -> M C) : keeps m -> (forall a, keeps (k a)) -> keeps (bind m k).
  Proof. intros Hm Hk. apply (keeps_bind_ok (fun _ => True)); auto. Qed.
  Lemma keeps_if {A} (c : bool) (m1 m2 : M A) : keeps m1 -> keeps m2 -> keeps (if c then m1 else m2).
  Proof. destruct c; auto. Qed.
  Lemma keeps_option {A X} (o : option X) (m1 : X -> M A) (m2 : M A) :
    (forall x, keeps (m1 x)) -> keeps m2 -> keeps (match o with Some x => m1 x | None => m2 end).
  Proof. destruct o; auto. Qed.
  Lemma keeps_try {A} (m : M A) : keeps m -> keeps (try_ m).
  Proof. intros Hm s. unfold try_. specialize (Hm s). destruct (m s); auto. Qed.
  Lemma keeps_forM {A} (l : list A) (g : A -> M unit) : (forall x, keeps (g x)) -> keeps (forM l g).
  Proof.
    intros H. induction l as [|x r IH]; simpl.
    - apply keeps_ret.
    - apply keeps_bind; [apply H|intros _; exact IH].
  Qed.
  Lemma keeps_coin_sub a b : keeps (coin_sub a b).
  Proof. unfold coin_sub. destruct (_ <? _); [apply keeps_panic|apply keeps_ret]. Qed.

  Lemma keeps_ok {A} (m : M A) s a s' : keeps m -> m s = Ok a s' -> f s' = f s.
  Proof. intros H E. specialize (H s). rewrite E in H. exact H. Qed.
  Lemma keeps_err {A} (m : M A) s e s' : keeps m -> m s = Err e s' -> f s' = f s.
  Proof. intros H E. specialize (H s). rewrite E in H. exact H. Qed.
End Keeps.

(* A [let] is entered under a fresh name for its value. [unfold] expands every [let] of a body,
   copying each value into all its uses: node_reset and begin_block are opened with [cbv delta],
   which does not. Tests are split by rules: [destruct] would rewrite the rest of the program at
   every test. *)
Ltac kwalk1 leaf :=
  cbv beta;
  lazymatch goal with
  | |- keeps ?f (let x := ?v in @?b x) => let y := fresh x in pose (y := v); change (keeps f (b y)); clearbody y
  | |- keeps ?f (bind ?m ?k) => refine (keeps_bind f m k _ _); [|intros ?]
  | |- keeps _ (ret _) => apply keeps_ret
  | |- keeps _ (fail _) => apply keeps_fail
  | |- keeps _ (panic _) => apply keeps_panic
  | |- keeps _ get => apply keeps_get
  | |- keeps _ (gets _) => apply keeps_gets
  | |- keeps _ (try_ _) => apply keeps_try
  | |- keeps _ (forM _ _) => apply keeps_forM; intros ?
  | |- keeps _ (coin_sub _ _) => apply keeps_coin_sub
  | |- keeps _ (fun _ => Hang) => apply keeps_hang
  | |- keeps ?f (if ?c then ?m1 else ?m2) => first [refine (keeps_if f c m1 m2 _ _) | destruct c]
  | |- keeps ?f (match ?o with Some x => @?m1 x | None => ?m2 end) =>
      first [refine (keeps_option f o m1 m2 _ _); [intros ?|] | destruct o]
  | |- keeps _ (match ?c with _ => _ end) => destruct c
  | |- _ => leaf
  end.
Ltac kwalk leaf := repeat kwalk1 leaf.
Ltac k_write := solve [apply keeps_modify; intros; reflexivity].

Ltac k_field Hf := apply keeps_modify; intros; apply Hf.
Section OneField.
  Context {B : Type} (f : State -> B).
  Lemma keeps_send_strict a b n : (forall s x, f (s <| bal := x |>) = f s) -> keeps f (send_strict a b n).
  Proof.
    intros Hf s. unfold send_strict. destruct (_ <=? _); [reflexivity|]. destruct (_ <? _); [reflexivity|apply Hf].
  Qed.
  Lemma keeps_repay_debt sp rw : (forall s g, f (s <| debts ::= g |>) = f s) -> keeps f (repay_debt sp rw).
  Proof. intros Hf. unfold repay_debt. kwalk ltac:(k_field Hf). Qed.
  Lemma keeps_market_claim cx sp : (forall s g, f (s <| workers ::= g |>) = f s) -> keeps f (market_claim cx sp).
  Proof. intros Hf. unfold market_claim. kwalk ltac:(k_field Hf). Qed.
End OneField.

(** ** node messages are keyed by the signer *)
Definition node_op_signer (op : Op) : option string :=
  match op with ONodeCreate c => Some c | ONodeReset m => Some (rs_creator m) | OAddVstorage c _ => Some c
              | ORemoveVstorage c _ => Some c | OClaimReward c => Some c | _ => None end.

Create HintDb nf.
Global Hint Resolve keeps_send_strict keeps_repay_debt keeps_market_claim : nf.

(* what the node messages signed by [c] write, as conditions on a view [f] *)
Section SignerWrites.
  Context {B : Type} (f : State -> B) (c : string).
  Context (f_node : forall s n, f (s <| nodes ::= <[c := n]> |>) = f s)
          (f_pledge : forall s p, f (s <| pledges ::= <[c := p]> |>) = f s)
          (f_pool : forall s x, f (s <| pool := x |>) = f s)
          (f_debts : forall s g, f (s <| debts ::= g |>) = f s)
          (f_workers : forall s g, f (s <| workers ::= g |>) = f s)
          (f_send : forall a b n, In a [c; macc NODE; macc MARKET] -> In b [c; macc NODE; macc MARKET] ->
                                  keeps f (send_strict a b n)).
  Ltac ks_leaf :=
    first [ solve [eauto 3 with nf nocore]
          | solve [apply f_send; simpl; auto]
          | solve [apply keeps_modify; intros; rewrite ?f_pool, ?f_pledge, ?f_node; reflexivity] ].

  Lemma keeps_node_create cx : keeps f (node_create cx c).
  Proof. unfold node_create. kwalk ks_leaf. Qed.
  Lemma keeps_node_reset cx m : rs_creator m = c -> keeps f (node_reset cx m).
  Proof. intros <-. cbv delta [node_reset]. kwalk ks_leaf. Qed.
  Lemma keeps_add_vstorage sz : keeps f (add_vstorage c sz).
  Proof. unfold add_vstorage. kwalk ks_leaf. Qed.
  Lemma keeps_remove_vstorage sz : keeps f (remove_vstorage c sz).
  Proof. unfold remove_vstorage. kwalk ks_leaf. Qed.
  Lemma keeps_shard_release sh : keeps f (shard_release c sh).
  Proof. unfold shard_release. kwalk ks_leaf. Qed.
  Lemma keeps_claim_reward cx : keeps f (claim_reward cx c).
  Proof. pose proof keeps_shard_release. unfold claim_reward. kwalk ks_leaf. Qed.

  Lemma keeps_node_op cx op : node_op_signer op = Some c -> forall m, tx_of cx op = Some m -> keeps f m.
  Proof.
    intros Hs m Hm. destruct op; try discriminate Hs; injection Hs as Hs; injection Hm as <-.
    - subst. apply keeps_node_create.
    - apply keeps_node_reset, Hs.
    - subst. apply keeps_add_vstorage.
    - subst. apply keeps_remove_vstorage.
    - subst. apply keeps_bind; [apply keeps_claim_reward|intros; apply keeps_ret].
  Qed.
End SignerWrites.

(** * C09 *)
Theorem rejected_tx_unchanged : forall cx s op s' c d,
  is_tx op = true -> step cx s op = (s', OutTx c d) -> c <> COk -> model_view s' = model_view s.
Proof.
  intros cx s op s' c d Htx H Hc.
  assert (G : forall m : M unit, (let '(s1, c1, d1) := deliver m s in (s1, OutTx c1 d1)) = (s', OutTx c d) ->
                                 model_view s' = model_view s).
  { intros m Hm. unfold deliver in Hm. destruct (m s) as [a s1|e s1|e|]; inversion Hm; subst; try reflexivity.
    congruence. }
  destruct op; simpl in Htx; try discriminate; simpl in H; try (eapply G; exact H).
Qed.
Print Assumptions rejected_tx_unchanged.

(* one step along the control flow of [H : prog s = Ok _ _]; failing branches die *)
Ltac dead H := solve [unfold fail, panic in H; discriminate H].
Ltac walk1 H :=
  cbv beta zeta in H;
  lazymatch type of H with
  | bind get _ _ = _ => rewrite bind_get in H
  | bind (ret _) _ _ = _ => rewrite bind_ret in H
  | (if ?c then _ else _) _ = _ => let E := fresh "E" in destruct c eqn:E; try dead H
  | (match ?c with _ => _ end) _ = _ => let E := fresh "E" in destruct c eqn:E; try dead H
  end.
Ltac walk H := repeat walk1 H.

Theorem terminate_authorized : forall cx s c p owner data sg s' d,
  sig_sane owner sg -> step cx s (OTerminate c p owner data sg) = (s', OutTx COk d) ->
  signed_by s owner sg /\ exists em, metas s !! data = Some em /\ may_write em owner.
Proof.
  intros cx s c p owner data sg s' d Hsane H. simpl in H. apply deliver_ok in H. unfold sao_terminate in H.
  walk1 H. walk1 H. walk1 H.
  match goal with Hx : verify_sig _ _ _ = Some _ |- _ => destruct (verify_sig_sound _ _ _ _ Hsane Hx) as [-> Hs] end.
  split; [exact Hs|].
  walk1 H. walk1 H.
  match goal with Hx : negb (may_update ?mm _) = false |- _ =>
    exists mm; split; [reflexivity|]; apply negb_false_iff in Hx; apply may_update_write; exact Hx end.
Qed.
Print Assumptions terminate_authorized.

Theorem permission_authorized : forall cx s c p owner data ro rw sg v s' d,
  sig_sane owner sg -> step cx s (OUpdatePermission c p owner data ro rw sg v) = (s', OutTx COk d) ->
  signed_by s owner sg /\ exists em, metas s !! data = Some em /\ may_admin em owner /\
  (forall k, k <> data -> metas s' !! k = metas s !! k).
Proof.
  intros cx s c p owner data ro rw sg v s' d Hsane H. simpl in H. apply deliver_ok in H.
  unfold sao_update_permission in H.
  walk1 H. walk1 H. walk1 H.
  match goal with Hx : verify_sig _ _ _ = Some _ |- _ => destruct (verify_sig_sound _ _ _ _ Hsane Hx) as [_ Hs] end.
  split; [exact Hs|].
  walk1 H. unfold update_permission in H. walk1 H. walk1 H. walk1 H.
  match goal with Hx : negb (String.eqb owner (m_owner ?mm)) = false |- _ =>
    apply negb_false_iff in Hx; apply String.eqb_eq in Hx; rename Hx into Eown; exists mm end.
  split; [reflexivity|]. split.
  - unfold may_admin. congruence.
  - intros k Hk. unfold modify in H. inversion H; subst s'. unfold set; simpl.
    apply lookup_insert_ne. congruence.
Qed.
Print Assumptions permission_authorized.

(** * C10 *)
Theorem complete_actor : forall cx s c p oid cid sz ok s' d,
  step cx s (OComplete c p oid cid sz ok) = (s', OutTx COk d) ->
  acts_for s c p = true /\ exists o sid sh, orders s !! oid = Some o /\ shard_by_sp s o p = Some (sid, sh) /\ sh_sp sh = p.
Proof.
  intros cx s c p oid cid sz ok s' d H. simpl in H. apply deliver_ok in H. unfold sao_complete in H.
  do 5 walk1 H.
  split; [apply negb_false_iff; assumption|].
  match goal with Hx : shard_by_sp s ?oo p = Some ?pp |- _ => destruct pp as [sid sh]; exists oo, sid, sh end.
  split; [reflexivity|]. split; [assumption|]. eapply shard_by_sp_sp; eassumption.
Qed.
Print Assumptions complete_actor.

Theorem cancel_actor : forall cx s c p oid s' d,
  step cx s (OCancel c p oid) = (s', OutTx COk d) ->
  exists o, orders s !! oid = Some o /\ o_status o <> OrderCompleted /\ acts_for s c p = true /\
    (o_creator o = c \/ (p = o_provider o /\ exists n, nodes s !! o_provider o = Some n /\ In (o_creator o) (n_tx n))).
Proof.
  intros cx s c p oid s' d H. simpl in H. apply deliver_ok in H. unfold sao_cancel in H.
  do 5 walk1 H.
  match goal with |- context[Some ?oo = Some _] => exists oo end.
  split; [reflexivity|]. split; [apply Z.eqb_neq; assumption|].
  split; [apply negb_false_iff; assumption|].
  match goal with Hx : negb (_ || _) = false |- _ => rename Hx into E0 end.
  apply negb_false_iff in E0. apply orb_true_iff in E0. destruct E0 as [E0|E0].
  - left. apply String.eqb_eq. exact E0.
  - right. apply andb_true_iff in E0. destruct E0 as [Ep En]. apply String.eqb_eq in Ep. split; [exact Ep|].
    match type of En with context[nodes s !! ?pp] => destruct (nodes s !! pp) as [n|]; [|discriminate] end.
    exists n. split; [reflexivity|apply in_list_In; exact En].
Qed.
Print Assumptions cancel_actor.

(** * functions that do not write the model tables *)
Create HintDb mv.
Ltac kp_leaf := first [ solve [eauto 3 with mv nocore] | k_write ].
Ltac kp := kwalk kp_leaf.

Lemma mv_send_strict a b n : keeps model_view (send_strict a b n).
Proof. apply keeps_send_strict. reflexivity. Qed.
Global Hint Resolve mv_send_strict : mv.
Lemma mv_send_lenient a b n : keeps model_view (send_lenient a b n).
Proof. intros s. unfold send_lenient. destruct (_ =? _); [reflexivity|]. apply mv_send_strict. Qed.
Global Hint Resolve mv_send_lenient : mv.
Lemma mv_mint a n : keeps model_view (mint a n).
Proof. intros s. unfold mint. destruct (_ <=? _); reflexivity. Qed.
Global Hint Resolve mv_mint : mv.

Lemma mv_lift_did cx o : keeps model_view (lift_did cx o).
Proof. intros s. unfold lift_did. destruct (did_handle _ _ _); reflexivity. Qed.
Global Hint Resolve mv_lift_did : mv.

Ltac mv_ignores := intros; first [reflexivity | apply mv_send_strict].
Lemma mv_node_create cx c : keeps model_view (node_create cx c).
Proof. apply keeps_node_create; mv_ignores. Qed.
Lemma mv_node_reset cx m : keeps model_view (node_reset cx m).
Proof. apply (keeps_node_reset _ (rs_creator m)); mv_ignores. Qed.
Lemma mv_add_vstorage c sz : keeps model_view (add_vstorage c sz).
Proof. apply keeps_add_vstorage; mv_ignores. Qed.
Lemma mv_remove_vstorage c sz : keeps model_view (remove_vstorage c sz).
Proof. apply keeps_remove_vstorage; mv_ignores. Qed.
Lemma mv_repay_debt sp rw : keeps model_view (repay_debt sp rw).
Proof. apply keeps_repay_debt. reflexivity. Qed.
Global Hint Resolve mv_repay_debt : mv.
Lemma mv_shard_release sp sh : keeps model_view (shard_release sp sh).
Proof. apply keeps_shard_release; mv_ignores. Qed.
Global Hint Resolve mv_shard_release : mv.
Lemma mv_shard_pledge id sh pr : keeps model_view (shard_pledge id sh pr).
Proof. unfold shard_pledge. kp. Qed.
Global Hint Resolve mv_shard_pledge : mv.
Lemma mv_market_claim cx sp : keeps model_view (market_claim cx sp).
Proof. apply keeps_market_claim. reflexivity. Qed.
Global Hint Resolve mv_market_claim : mv.
Lemma mv_claim_reward cx c : keeps model_view (claim_reward cx c).
Proof. apply keeps_claim_reward; mv_ignores. Qed.
Lemma mv_increase_reputation n v : keeps model_view (increase_reputation n v).
Proof. unfold increase_reputation. kp. Qed.
Global Hint Resolve mv_increase_reputation : mv.
Lemma mv_random_sp_m cx c ig sz : keeps model_view (random_sp_m cx c ig sz).
Proof. unfold random_sp_m. kp. Qed.
Global Hint Resolve mv_random_sp_m : mv.
Lemma mv_get_sps cx o data : keeps model_view (get_sps cx o data).
Proof. unfold get_sps. kp. Qed.
Global Hint Resolve mv_get_sps : mv.
Lemma mv_append_shard sh : keeps model_view (append_shard sh).
Proof. unfold append_shard. kp. Qed.
Global Hint Resolve mv_append_shard : mv.
Lemma mv_append_order o : keeps model_view (append_order o).
Proof. unfold append_order. kp. Qed.
Global Hint Resolve mv_append_order : mv.
Lemma mv_gen_shards oid sps : forall o, keeps model_view (gen_shards oid o sps).
Proof. induction sps as [|sp r IH]; intros o; simpl; [kp|]. unfold new_shard_task. kp. Qed.
Global Hint Resolve mv_gen_shards : mv.
Lemma mv_generate_shards oid o sps : keeps model_view (generate_shards oid o sps).
Proof. unfold generate_shards. kp. Qed.
Global Hint Resolve mv_generate_shards : mv.
Lemma mv_new_order cx o sps : keeps model_view (new_order cx o sps).
Proof. unfold new_order. kp. Qed.
Global Hint Resolve mv_new_order : mv.
Lemma mv_set_timeout_block oid h : keeps model_view (set_timeout_block oid h).
Proof. unfold set_timeout_block. kp. Qed.
Global Hint Resolve mv_set_timeout_block : mv.
Lemma mv_set_expired_shard_block sid h : keeps model_view (set_expired_shard_block sid h).
Proof. unfold set_expired_shard_block. kp. Qed.
Global Hint Resolve mv_set_expired_shard_block : mv.
Lemma mv_sao_ready cx c p oid : keeps model_view (sao_ready cx c p oid).
Proof. unfold sao_ready. kp. Qed.

Lemma mv_migrate_one cx p data : keeps model_view (migrate_one cx p data).
Proof.
  unfold migrate_one. apply keeps_bind; [apply keeps_get|intros s0]. cbv beta.
  destruct (metas s0 !! data) as [m|]; [|kp].
  generalize (@nil string). generalize (rev (m_orders m)).
  induction l as [|oid rest IH]; intros commits; [kp|].
  kp; try apply IH.
Qed.
Lemma mv_sao_migrate cx c p data : keeps model_view (sao_migrate cx c p data).
Proof. unfold sao_migrate. kp. apply mv_migrate_one. Qed.

Lemma mv_set_fault k f : keeps model_view (set_fault k f).
Proof. unfold set_fault. kp. Qed.
Global Hint Resolve mv_set_fault : mv.
Lemma mv_report_faults cx c p fl : keeps model_view (sao_report_faults cx c p fl).
Proof. unfold sao_report_faults. kp. Qed.
Lemma mv_recover_faults cx c p fl : keeps model_view (sao_recover_faults cx c p fl).
Proof. unfold sao_recover_faults. kp. Qed.

Lemma mv_set_role c r v : keeps model_view (set_role c r v).
Proof. unfold set_role. apply keeps_modify. intros s. destruct (nodes s !! c); reflexivity. Qed.
Global Hint Resolve mv_set_role : mv.
Lemma mv_verify_super v a b : keeps model_view (verify_super v a b).
Proof.
  unfold verify_super. kp.
  all: apply keeps_modify; intros s0; destruct (pg s0 =? 0); reflexivity.
Qed.
Global Hint Resolve mv_verify_super : mv.
Lemma mv_st_event e : keeps model_view (st_event e).
Proof. destruct e; simpl; kp. Qed.
Lemma mv_staking_tx evs : keeps model_view (staking_tx evs).
Proof. unfold staking_tx. kp. apply mv_st_event. Qed.
Global Hint Resolve mv_staking_tx : mv.

Lemma mv_begin_block cx : keeps model_view (begin_block cx).
Proof. cbv delta [begin_block reward_age]. kp. Qed.

Lemma deliver_keeps {B} (f : State -> B) (m : M unit) s :
  keeps f m -> (forall s1 g, f (s1 <| pg := g |>) = f s1) ->
  f (fst (let '(s1, c1, d1) := deliver m s in (s1, OutTx c1 d1))) = f s.
Proof.
  intros Hk Hpg. unfold deliver. specialize (Hk s). destruct (m s) as [a s1|e s1|e|]; simpl; auto.
  exact (Hpg s (pg s1)).
Qed.

Theorem model_frame : forall cx s op, touches_models op = false -> model_view (fst (step cx s op)) = model_view s.
Proof.
  intros cx s op Ht.
  destruct op; simpl in Ht; try discriminate; simpl;
    try (apply deliver_keeps; [|intros; reflexivity]).
  - pose proof (mv_begin_block cx s) as H. unfold block_phase. destruct (begin_block cx s); simpl; auto.
  - apply mv_lift_did.
  - apply mv_node_create.
  - apply mv_node_reset.
  - apply mv_add_vstorage.
  - apply mv_remove_vstorage.
  - apply keeps_bind; [apply mv_claim_reward|intros; apply keeps_ret].
  - apply mv_sao_ready.
  - apply mv_sao_migrate.
  - apply mv_report_faults.
  - apply mv_recover_faults.
  - apply mv_send_strict.
  - apply mv_staking_tx.
  - (* OSimulate *) destruct (staking_tx evs s); reflexivity.
Qed.
Print Assumptions model_frame.

Create HintDb bd.
(* what the payment of an order reads and writes: the balances and the DID tables *)
Definition bd (s : State) := (bal s, did s).
Ltac kb_leaf := first [ solve [eauto 3 with bd nocore] | k_write ].
Ltac kb := kwalk kb_leaf.

Lemma bd_random_sp_m cx c ig sz : keeps bd (random_sp_m cx c ig sz).
Proof. unfold random_sp_m. kb. Qed.
Global Hint Resolve bd_random_sp_m : bd.
Lemma bd_get_sps cx o data : keeps bd (get_sps cx o data).
Proof. unfold get_sps. kb. Qed.
Global Hint Resolve bd_get_sps : bd.
Lemma bd_append_shard sh : keeps bd (append_shard sh).
Proof. unfold append_shard. kb. Qed.
Global Hint Resolve bd_append_shard : bd.
Lemma bd_append_order o : keeps bd (append_order o).
Proof. unfold append_order. kb. Qed.
Global Hint Resolve bd_append_order : bd.
Lemma bd_gen_shards oid sps : forall o, keeps bd (gen_shards oid o sps).
Proof. induction sps as [|sp r IH]; intros o; simpl; [kb|]. unfold new_shard_task. kb. Qed.
Global Hint Resolve bd_gen_shards : bd.
Lemma bd_generate_shards oid o sps : keeps bd (generate_shards oid o sps).
Proof. unfold generate_shards. kb. Qed.
Global Hint Resolve bd_generate_shards : bd.
Lemma bd_new_order cx o sps : keeps bd (new_order cx o sps).
Proof. unfold new_order. kb. Qed.
Global Hint Resolve bd_new_order : bd.
Lemma bd_set_timeout_block oid h : keeps bd (set_timeout_block oid h).
Proof. unfold set_timeout_block. kb. Qed.
Global Hint Resolve bd_set_timeout_block : bd.
Lemma bd_set_data_expire d h : keeps bd (set_data_expire d h).
Proof. unfold set_data_expire. kb. Qed.
Global Hint Resolve bd_set_data_expire : bd.
Lemma bd_remove_data_expire d h : keeps bd (remove_data_expire d h).
Proof. unfold remove_data_expire. kb. Qed.
Global Hint Resolve bd_remove_data_expire : bd.
Lemma bd_new_meta cx o d m : keeps bd (new_meta cx o d m).
Proof. unfold new_meta. kb. Qed.
Global Hint Resolve bd_new_meta : bd.
Lemma bd_update_meta_status_commit cx oid o : keeps bd (update_meta_status_commit cx oid o).
Proof. unfold update_meta_status_commit. kb. Qed.
Global Hint Resolve bd_update_meta_status_commit : bd.


Lemma send_strict_bd from to amt x y s' :
  bd x = bd y -> send_strict from to amt x = Ok tt s' -> 0 < amt /\ bd s' = bd (move from to amt y).
Proof.
  unfold send_strict. destruct (amt <=? 0) eqn:Eamt; [discriminate|]. apply Z.leb_gt in Eamt.
  destruct (_ <? _); [discriminate|]. intros Hxy [= <-]. split; [exact Eamt|].
  revert Hxy. unfold bd, move, balance, set; simpl. intros [= -> ->]. reflexivity.
Qed.

Lemma move_lower from to amt s a : 0 <= amt -> balance (move from to amt s) a < balance s a -> a = from.
Proof.
  intros Ha H. destruct (decide (a = from)) as [|Hn]; [assumption|exfalso].
  unfold move, balance in H. unfold set in H; simpl in H.
  destruct (decide (a = to)) as [->|Hn2].
  - rewrite lookup_insert in H. rewrite lookup_insert_ne in H by congruence. simpl in H.
    destruct (bal s !! to); simpl in H; lia.
  - rewrite !lookup_insert_ne in H by congruence. lia.
Qed.

Lemma bd_reads x y : bd x = bd y -> (forall a, balance x a = balance y a) /\ (forall d, pay_addr x d = pay_addr y d).
Proof. unfold bd, balance, pay_addr. intros [= -> ->]. split; reflexivity. Qed.
Ltac retinv H := unfold ret in H; inversion H; subst; clear H.

Definition store_paid_by (cx : Ctx) (s : State) (m : StoreMsg) (a : string) : Prop :=
  (st_paydid m = "" /\ pay_addr s (st_owner m) = Some a /\
     (creator_bound_s cx s (st_creator m) (st_owner m) = true \/
      (st_pprovider m = st_creator m /\ st_provider m = st_creator m) \/
      (st_pprovider m = st_provider m /\ exists n, nodes s !! st_provider m = Some n /\ In (st_creator m) (n_tx n)))) \/
  (st_paydid m <> "" /\ pay_addr s (st_paydid m) = Some a /\ a = st_creator m).

Lemma sao_store_accepted cx m s s' : sao_store cx m s = Ok tt s' ->
  (exists sigdid, verify_sig s (st_owner m) (st_sig m) = Some sigdid /\
     forall em, metas s !! st_data m = Some em -> may_update em sigdid = true) /\
  exists payer amt, store_paid_by cx s m payer /\ 0 < amt /\ bd s' = bd (move payer (macc ORDER) amt s).
Proof.
  intros H. unfold sao_store in H.
  do 9 walk1 H.
  split.
  { eexists. split; [reflexivity|]. intros em Hem.
    match goal with Hx : context[may_update] |- _ => rewrite Hem in Hx; apply negb_false_iff in Hx; exact Hx end. }
  apply bind_ok in H. destruct H as (pay0 & sA & Hp & H).
  do 3 walk1 H.
  apply bind_ok in H. destruct H as (isp & sB & Hisp & H).
  apply bind_ok in H. destruct H as (sps & sC & Hsps & H).
  do 2 walk1 H.
  apply bind_ok in H. destruct H as (payer & sD & Hpayer & H).
  walk1 H.
  apply bind_ok in H. destruct H as ([] & sE & Hsend & H).
  (* only the transfer moves coins, and nothing writes the DID table *)
  apply (keeps_ok bd) in H; [|kb]. apply (keeps_ok bd) in Hsps; [|kb].
  (* the sponsor, the provider test and the payer block only read: each keeps the whole state,
     which a walk shows without meeting a call or a write *)
  assert (sA = s) as -> by (refine (keeps_ok (fun t => t) _ _ _ _ _ Hp); kwalk ltac:(fail)).
  assert (sB = s) as -> by (refine (keeps_ok (fun t => t) _ _ _ _ _ Hisp); kwalk ltac:(fail)).
  assert (sD = sC) as -> by (refine (keeps_ok (fun t => t) _ _ _ _ _ Hpayer); kwalk ltac:(fail)).
  apply (send_strict_bd _ _ _ _ _ _ Hsps) in Hsend as [Hamt Hsend]. rewrite Hsend in H.
  exists payer. eexists. split; [|split; [exact Hamt|exact H]].
  apply bd_reads in Hsps as [_ HpC]. clear H Hamt.
  walk Hp; retinv Hp; cbv beta iota in Hisp, Hpayer.
  - left. split; [apply String.eqb_eq; assumption|].
    walk Hpayer; retinv Hpayer. rewrite <- HpC. split; [assumption|].
    walk Hisp; retinv Hisp; [left; reflexivity|right].
    match goal with Hx : orb _ _ = true |- _ => apply orb_true_iff in Hx; destruct Hx as [Hx|Hx]; apply andb_true_iff in Hx; destruct Hx as [Hx1 Hx2] end.
    + left. split; apply String.eqb_eq; assumption.
    + right. split; [apply String.eqb_eq; assumption|].
      match goal with |- context[nodes ?x !! st_provider m] => destruct (nodes x !! st_provider m) as [n1|]; [|discriminate] end.
      exists n1. split; [reflexivity|apply in_list_In; assumption].
  - right. retinv Hpayer.
    match goal with Hx : String.eqb _ (st_creator m) = true |- _ => apply String.eqb_eq in Hx; subst end.
    split; [|split; [assumption|reflexivity]].
    intros Hq. match goal with Hx : String.eqb (st_paydid m) "" = false |- _ => rewrite Hq in Hx; discriminate Hx end.
Qed.

Theorem store_authorized : forall cx s m s' d,
  sig_sane (st_owner m) (st_sig m) -> step cx s (OStore m) = (s', OutTx COk d) ->
  signed_by s (st_owner m) (st_sig m) /\ (forall em, metas s !! st_data m = Some em -> may_write em (st_owner m)).
Proof.
  intros cx s m s' d Hsane H. simpl in H. apply deliver_ok, sao_store_accepted in H as [(sigdid & Hv & Hperm) _].
  destruct (verify_sig_sound _ _ _ _ Hsane Hv) as [-> Hs].
  split; [exact Hs|]. intros em Hem. apply may_update_write, Hperm, Hem.
Qed.

Print Assumptions store_authorized.

Theorem store_payer : forall cx s m s' d a, step cx s (OStore m) = (s', OutTx COk d) -> balance s' a < balance s a ->
  (st_paydid m = "" /\ pay_addr s (st_owner m) = Some a /\
     (creator_bound_s cx s (st_creator m) (st_owner m) = true \/
      (st_pprovider m = st_creator m /\ st_provider m = st_creator m) \/
      (st_pprovider m = st_provider m /\ exists n, nodes s !! st_provider m = Some n /\ In (st_creator m) (n_tx n)))) \/
  (st_paydid m <> "" /\ pay_addr s (st_paydid m) = Some a /\ a = st_creator m).
Proof.
  intros cx s m s' d a H Hlt. change (store_paid_by cx s m a). simpl in H.
  apply deliver_ok, sao_store_accepted in H as [_ (payer & amt & Hpaid & Hamt & Hbd)].
  apply bd_reads in Hbd as [Hb _]. rewrite Hb in Hlt. apply move_lower in Hlt as ->; [exact Hpaid|lia].
Qed.
Print Assumptions store_payer.

Definition node_at (k : string) (s : State) := (nodes s !! k, pledges s !! k).
Definition bal_at (k : string) (s : State) := bal s !! k.

Lemma bal_at_send_strict k from to amt : k <> from -> k <> to -> keeps (bal_at k) (send_strict from to amt).
Proof.
  intros H1 H2 s. unfold send_strict. destruct (_ <=? _); [reflexivity|]. destruct (_ <? _); [reflexivity|].
  unfold bal_at, move, set; simpl. rewrite !lookup_insert_ne by congruence. reflexivity.
Qed.

Theorem node_msgs_frame : forall cx s op c k, node_op_signer op = Some c -> k <> c ->
  nodes (fst (step cx s op)) !! k = nodes s !! k /\ pledges (fst (step cx s op)) !! k = pledges s !! k /\
  (k <> macc NODE -> k <> macc MARKET -> bal (fst (step cx s op)) !! k = bal s !! k).
Proof.
  intros cx s op c k Hs Hk.
  assert (Hst : exists m, tx_of cx op = Some m /\ step cx s op = (let '(s1, c1, d1) := deliver m s in (s1, OutTx c1 d1))).
  { destruct op; simpl in Hs; try discriminate; eexists; (split; [reflexivity|]); reflexivity. }
  destruct Hst as (m & Hm & ->).
  assert (H1 : keeps (node_at k) m).
  { apply (keeps_node_op (node_at k) c) with (cx := cx) (op := op); try assumption; try reflexivity.
    1, 2: intros; unfold node_at, set; simpl; rewrite lookup_insert_ne by congruence; reflexivity.
    intros. apply keeps_send_strict. reflexivity. }
  apply (deliver_keeps _ m s) in H1; [|reflexivity].
  unfold node_at in H1. inversion H1 as [[Hn Hp]]. rewrite Hn, Hp. split; [reflexivity|]. split; [reflexivity|].
  intros Hkn Hkm. apply (deliver_keeps (bal_at k)); [|reflexivity].
  apply (keeps_node_op (bal_at k) c) with (cx := cx) (op := op); try assumption; try reflexivity.
  intros a b n Ha Hb. apply bal_at_send_strict; intros ->; simpl in Ha, Hb; intuition congruence.
Qed.
Print Assumptions node_msgs_frame.

(** ** functions that do not write the metadata table; functions that write one key of it *)
Lemma mv_mt {A} (m : M A) : keeps model_view m -> keeps metas m.
Proof. intros H s. specialize (H s). unfold model_view in H. destruct (m s); auto; congruence. Qed.

Create HintDb mt.
Ltac kt_leaf := first [ solve [eauto 3 with mt nocore] | solve [apply mv_mt; eauto 3 with mv nocore] | k_write ].
Ltac kt := kwalk kt_leaf.

Lemma mt_set_data_expire d h : keeps metas (set_data_expire d h).
Proof. unfold set_data_expire. kt. Qed.
Global Hint Resolve mt_set_data_expire : mt.
Lemma mt_remove_data_expire d h : keeps metas (remove_data_expire d h).
Proof. unfold remove_data_expire. kt. Qed.
Global Hint Resolve mt_remove_data_expire : mt.
Lemma mt_worker_release cx o sh : keeps metas (worker_release cx o sh).
Proof. unfold worker_release. kt. Qed.
Global Hint Resolve mt_worker_release : mt.
Lemma mt_worker_append cx o sh : keeps metas (worker_append cx o sh).
Proof. unfold worker_append. kt. Qed.
Global Hint Resolve mt_worker_append : mt.
Lemma mt_market_deposit o : keeps metas (market_deposit o).
Proof. unfold market_deposit. kt. Qed.
Global Hint Resolve mt_market_deposit : mt.
Lemma mt_market_withdraw cx oid o : keeps metas (market_withdraw cx oid o).
Proof.
  unfold market_withdraw. destruct (_ =? _); [kt|]. cbv zeta.
  match goal with |- keeps _ (_ _ ?b) => generalize b end.
  generalize (o_shards o). induction l as [|id rest IH]; intros refund; [kt|].
  kt; apply IH.
Qed.
Global Hint Resolve mt_market_withdraw : mt.
Lemma mt_send_to_did_balances md d n : keeps metas (send_to_did_balances md d n).
Proof. unfold send_to_did_balances. kt. Qed.
Global Hint Resolve mt_send_to_did_balances : mt.
Lemma mt_order_terminate oid r : keeps metas (order_terminate oid r).
Proof. unfold order_terminate. kt. Qed.
Global Hint Resolve mt_order_terminate : mt.
Lemma mt_model_terminate_order cx oid o : keeps metas (model_terminate_order cx oid o).
Proof. unfold model_terminate_order. kt. Qed.
Global Hint Resolve mt_model_terminate_order : mt.
Lemma mt_remove_shards ids : keeps metas (remove_shards ids).
Proof. unfold remove_shards. kt. Qed.
Global Hint Resolve mt_remove_shards : mt.
Lemma mt_force_push_loop cx lc : forall ro acc, keeps metas (force_push_loop cx ro lc acc).
Proof. induction ro as [|oid rest IH]; intros acc; simpl; kt. Qed.
Global Hint Resolve mt_force_push_loop : mt.
Lemma mt_reset_meta_duration cx d m : keeps metas (reset_meta_duration cx d m).
Proof. unfold reset_meta_duration. kt. Qed.
Global Hint Resolve mt_reset_meta_duration : mt.
Lemma mt_refund_order oid : keeps metas (refund_order oid).
Proof. unfold refund_order. kt. Qed.
Global Hint Resolve mt_refund_order : mt.
Lemma mt_complete_migration cx oid o sid sh : keeps metas (complete_migration cx oid o sid sh).
Proof. unfold complete_migration. kt. Qed.
Global Hint Resolve mt_complete_migration : mt.

Definition meta_at (k : string) (s : State) : option Meta := metas s !! k.
Lemma meta_at_of_metas k {A} (m : M A) : keeps metas m -> keeps (meta_at k) m.
Proof. intros H s. specialize (H s). unfold meta_at. destruct (m s); auto; congruence. Qed.

Ltac km_leaf :=
  first [ assumption
        | solve [apply meta_at_of_metas; kt_leaf]
        | solve [apply keeps_modify; intros; first [apply lookup_insert_ne | apply lookup_delete_ne]; congruence] ].
Ltac km := kwalk km_leaf.

Section OneKey.
  Context (k : string).
  Lemma meta_at_new_meta cx o data nm : k <> data -> keeps (meta_at k) (new_meta cx o data nm).
  Proof. intros Hk. unfold new_meta. km. Qed.
  Lemma meta_at_umsc cx oid o : k <> o_data o -> keeps (meta_at k) (update_meta_status_commit cx oid o).
  Proof. intros Hk. unfold update_meta_status_commit. km. Qed.
  Lemma meta_at_extend_meta_duration data e : k <> data -> keeps (meta_at k) (extend_meta_duration data e).
  Proof. intros Hk. unfold extend_meta_duration. km. Qed.
  Lemma meta_at_update_meta cx oid o : k <> o_data o -> keeps (meta_at k) (update_meta cx oid o).
  Proof. intros Hk. unfold update_meta. km. Qed.
  Lemma meta_at_rollback_meta cx data : k <> data -> keeps (meta_at k) (rollback_meta cx data).
  Proof. intros Hk. unfold rollback_meta. km. Qed.
End OneKey.

Lemma gen_shards_fields oid sps : forall o s o' s', gen_shards oid o sps s = Ok o' s' -> o' = o <| o_shards := o_shards o' |>.
Proof.
  induction sps as [|sp r IH]; intros o s o' s' H; simpl in H.
  - inversion H. destruct o'; reflexivity.
  - apply bind_ok in H. destruct H as (id & s1 & _ & H). apply IH in H. rewrite H at 1. destruct o; reflexivity.
Qed.
Lemma new_order_fields cx o sps s id o2 s' : new_order cx o sps s = Ok (id, o2) s' ->
  o2 = o <| o_shards := o_shards o2 |> <| o_status := o_status o2 |> <| o_created := cx_height cx |>.
Proof.
  unfold new_order. intros H.
  apply bind_ok in H. destruct H as (id0 & s1 & _ & H).
  apply bind_ok in H. destruct H as (o1 & s2 & Hg & H).
  apply bind_ok in H. destruct H as ([] & s3 & _ & H). inversion H; subst.
  unfold generate_shards in Hg. destruct sps as [|sp r].
  - inversion Hg. destruct o1; reflexivity.
  - apply bind_ok in Hg. destruct Hg as (o' & s4 & Hg & Hr). inversion Hr; subst.
    rewrite (gen_shards_fields _ _ _ _ _ _ Hg) at 1. destruct o; reflexivity.
Qed.
Lemma new_order_data cx o sps s id o2 s' : new_order cx o sps s = Ok (id, o2) s' -> o_data o2 = o_data o.
Proof. intros H. rewrite (new_order_fields _ _ _ _ _ _ _ H). reflexivity. Qed.

Lemma meta_at_sao_store k cx m : k <> st_data m -> keeps (meta_at k) (sao_store cx m).
Proof.
  intros Hk. pose proof (meta_at_new_meta k) as L1. pose proof (meta_at_umsc k) as L2.
  unfold sao_store.
  repeat lazymatch goal with |- keeps _ (bind (new_order _ _ _) _) => fail | |- _ => kwalk1 km_leaf end.
  (* the order made carries the data id of the message, and only that model is written *)
  apply keeps_bind_ok with (P := fun r => o_data r.2 = st_data m); [km_leaf| |intros [oid o2] Hd].
  - intros t [oid o2] t' Hno. exact (new_order_data _ _ _ _ _ _ _ Hno).
  - simpl in Hd. km; first [apply L1; assumption | apply L2; congruence].
Qed.

Theorem store_touches_only_its_model : forall cx s m s' d k,
  step cx s (OStore m) = (s', OutTx COk d) -> k <> st_data m -> metas s' !! k = metas s !! k.
Proof.
  intros cx s m s' d k H Hk. simpl in H. apply deliver_ok in H.
  exact (keeps_ok (meta_at k) _ _ _ _ (meta_at_sao_store k cx m Hk) H).
Qed.
Print Assumptions store_touches_only_its_model.

Theorem complete_touches_only_order_model : forall cx s c p oid cid sz ok s' d o k,
  step cx s (OComplete c p oid cid sz ok) = (s', OutTx COk d) ->
  orders s !! oid = Some o -> k <> o_data o -> metas s' !! k = metas s !! k.
Proof.
  intros cx s c p oid cid sz ok s' d o k H Ho Hk. simpl in H. apply deliver_ok in H. unfold sao_complete in H.
  walk1 H. walk1 H. rewrite Ho in H. cbv beta iota in H.
  change (meta_at k s' = meta_at k s).
  refine (keeps_ok (meta_at k) _ _ _ _ _ H).
  pose proof (meta_at_update_meta k cx oid o Hk) as L1. pose proof (fun e => meta_at_extend_meta_duration k (o_data o) e Hk) as L2.
  km; first [apply L1 | apply L2].
Qed.
Print Assumptions complete_touches_only_order_model.

Theorem cancel_touches_only_order_model : forall cx s c p oid s' d o k,
  step cx s (OCancel c p oid) = (s', OutTx COk d) ->
  orders s !! oid = Some o -> k <> o_data o -> metas s' !! k = metas s !! k.
Proof.
  intros cx s c p oid s' d o k H Ho Hk. simpl in H. apply deliver_ok in H. unfold sao_cancel in H.
  walk1 H. rewrite Ho in H. cbv beta iota in H. do 3 walk1 H.
  apply bind_ok in H. destruct H as ([] & sA & Hloop & H).
  assert (HA : (orders sA, metas sA) = (orders s, metas s)).
  { refine (keeps_ok (fun t => (orders t, metas t)) _ _ _ _ _ Hloop).
    kt; apply keeps_shard_release; intros; first [reflexivity | apply keeps_send_strict; reflexivity]. }
  inversion HA as [[HAo HAm]].
  unfold cancel_order in H. walk1 H. rewrite HAo, Ho in H.
  assert (HB : meta_at k s' = meta_at k sA).
  { refine (keeps_ok (meta_at k) _ _ _ _ _ H).
    pose proof (meta_at_rollback_meta k cx (o_data o) Hk) as L1. km. }
  unfold meta_at in HB. rewrite HB, HAm. reflexivity.
Qed.
Print Assumptions cancel_touches_only_order_model.

(** ** Renew *)
(* what Renew needs of the state for the authorisation statement: a model's latest order
   names that model. (On states that violate it the statement is false:
   [renew_authorized_refuted].) *)
Definition meta_order_link (s : State) : Prop :=
  forall d meta o, metas s !! d = Some meta -> orders s !! m_order meta = Some o -> o_data o = d.

Definition meta_step (d : string) (P : Meta -> Meta -> Prop) (s s' : State) : Prop :=
  orders s' = orders s /\ order_count s' = order_count s /\
  (forall k, k <> d -> metas s' !! k = metas s !! k) /\
  (forall m', metas s' !! d = Some m' -> exists m0, metas s !! d = Some m0 /\ P m0 m').

Definition renew_tables (s : State) := (metas s, orders s, order_count s).
Lemma renew_tables_remove_data_expire d h : keeps renew_tables (remove_data_expire d h).
Proof. unfold remove_data_expire. kt. Qed.
Lemma renew_tables_set_data_expire d h : keeps renew_tables (set_data_expire d h).
Proof. unfold set_data_expire. kt. Qed.

Lemma extend_meta_step d e s s' :
  extend_meta_duration d e s = Ok tt s' -> meta_step d (fun m0 m' => m_order m' = m_order m0 /\ m_owner m' = m_owner m0) s s'.
Proof.
  unfold extend_meta_duration. intros H. walk1 H. walk1 H.
  2:{ inversion H; subst. repeat split; auto. intros m' Hm'. rewrite Hm' in E. discriminate. }
  walk1 H.
  2:{ inversion H; subst. repeat split; auto. intros m' Hm'. exists m. split; [assumption|]. split; congruence. }
  apply bind_ok in H. destruct H as ([] & s1 & H1 & H).
  apply bind_ok in H. destruct H as ([] & s2 & H2 & H).
  apply (keeps_ok renew_tables _ _ _ _ (renew_tables_remove_data_expire _ _)) in H1.
  apply (keeps_ok renew_tables _ _ _ _ (renew_tables_set_data_expire _ _)) in H2.
  unfold renew_tables in H1, H2. inversion H1. inversion H2. unfold modify in H. inversion H; subst s'. clear H H1 H2.
  unfold meta_step, set; simpl. split; [congruence|]. split; [congruence|]. split.
  - intros k Hk. rewrite lookup_insert_ne by congruence. congruence.
  - intros m'. rewrite lookup_insert. intros Hm'. inversion Hm'; subst m'. exists m. split; [assumption|split; reflexivity].
Qed.

Lemma update_meta_op3_step cx oid o s r s' :
  o_op o = 3 -> try_ (update_meta cx oid o) s = Ok r s' ->
  meta_step (o_data o) (fun m0 m' => (m_order m' = m_order m0 \/ m_order m' = oid) /\ m_owner m' = m_owner m0) s s'.
Proof.
  intros H3 H.
  assert (Hsame : s' = s -> meta_step (o_data o) (fun m0 m' => (m_order m' = m_order m0 \/ m_order m' = oid) /\ m_owner m' = m_owner m0) s s').
  { intros ->. repeat split; auto. intros m' Hm'. exists m'. auto. }
  unfold try_, update_meta in H. rewrite bind_get in H. cbv beta in H.
  destruct (negb _); [unfold fail in H; inversion H; subst; auto|].
  destruct (metas s !! o_data o) as [m0|] eqn:Em; [|unfold fail in H; inversion H; subst; auto].
  destruct (negb _); [unfold fail in H; inversion H; subst; auto|].
  rewrite H3 in H. change (3 =? 1) with false in H. change (3 =? 2) with false in H. change (3 =? 3) with true in H.
  cbv beta iota in H. rewrite bind_ret in H. unfold modify in H. inversion H; subst s'. clear H.
  unfold meta_step, set; simpl. split; [reflexivity|]. split; [reflexivity|]. split.
  - intros k Hk. rewrite lookup_insert_ne by congruence. reflexivity.
  - intros m'. rewrite lookup_insert. intros Hm'. inversion Hm'; subst m'. exists m0. split; [assumption|]. split; [right|]; reflexivity.
Qed.

Lemma renew_order_eff no s r s1 :
  try_ (renew_order no) s = Ok r s1 ->
  match r with
  | None => s1 = s
  | Some nid => nid = order_count s /\ metas s1 = metas s /\ orders s1 = <[nid := no]> (orders s) /\
                order_count s1 = u64 (nid + 1)
  end.
Proof.
  unfold try_, renew_order. rewrite bind_get. cbv beta.
  destruct (pay_addr s (o_owner no)) as [payer|]; [|unfold fail; intros H; inversion H; reflexivity].
  unfold bind, send_strict.
  destruct (_ <=? _); [intros H; inversion H; reflexivity|].
  destruct (_ <? _); [intros H; inversion H; reflexivity|].
  unfold append_order, bind, get, modify, ret. intros H. inversion H; subst. repeat split; reflexivity.
Qed.


(* the effect of one iteration on the metadata and order tables: the listed model [d] is
   extended, the model named by its latest order gets the new order; no owner changes *)
Definition renew_eff (sigdid d : string) (s s' : State) : Prop :=
  s' = s \/
  exists meta o nid no,
    metas s !! d = Some meta /\ m_owner meta = sigdid /\ orders s !! m_order meta = Some o /\
    o_data no = o_data o /\ orders s' = <[nid := no]> (orders s) /\
    (forall k, k <> d -> k <> o_data o -> metas s' !! k = metas s !! k) /\
    (forall k m', metas s' !! k = Some m' ->
       exists m0, metas s !! k = Some m0 /\ m_owner m' = m_owner m0 /\
                  (m_order m' = m_order m0 \/ m_order m' = nid)).

Lemma renew_one_eff cx m sigdid d s s' : renew_one cx m sigdid d s = Ok tt s' -> renew_eff sigdid d s s'.
Proof.
  intros H. unfold renew_one in H.
  walk1 H.
  walk1 H; [|inversion H; subst; left; reflexivity].
  walk1 H; [inversion H; subst; left; reflexivity|].
  walk1 H; [inversion H; subst; left; reflexivity|].
  walk1 H; [|inversion H; subst; left; reflexivity].
  walk1 H; [|inversion H; subst; left; reflexivity].
  walk1 H; [inversion H; subst; left; reflexivity|].
  walk1 H; [inversion H; subst; left; reflexivity|].
  walk1 H.
  match goal with Hx : metas s !! d = Some ?mm |- _ => rename Hx into Emeta; rename mm into meta end.
  match goal with Hx : orders s !! m_order meta = Some ?oo |- _ => rename Hx into Eord; rename oo into o end.
  match goal with Hx : negb (String.eqb (m_owner meta) sigdid) = false |- _ =>
    apply negb_false_iff in Hx; apply String.eqb_eq in Hx; rename Hx into Eown end.
  apply bind_ok in H. destruct H as (r & s1 & Hr & H).
  apply renew_order_eff in Hr.
  destruct r as [nid|]; [|unfold ret in H; inversion H; subst; left; reflexivity].
  destruct Hr as (Hnid & Hm1 & Ho1 & Hc).
  apply bind_ok in H. destruct H as (new_end & s2 & Hgo & H).
  assert (H2 : renew_tables s2 = renew_tables s1).
  { refine (keeps_ok renew_tables _ _ _ _ _ Hgo).
    generalize 0 at 3.
    match goal with |- forall z, keeps _ (_ ?l z) => generalize l end.
    intros l'. induction l' as [|x rest IH]; intros acc.
    - apply keeps_ret.
    - kt; first [apply keeps_send_strict; reflexivity | apply IH]. }
  clear Hgo.
  apply bind_ok in H. destruct H as ([] & s3 & Hext & H).
  apply extend_meta_step in Hext.
  apply bind_ok in H. destruct H as (r' & s4 & Hupd & H).
  apply update_meta_op3_step in Hupd; [|reflexivity]. simpl in Hupd.
  unfold ret in H. inversion H; subst s4. clear H.
  unfold renew_tables in H2. inversion H2 as [[Hm2 Ho2 Hc2]]. clear H2.
  destruct Hext as (Ho3 & Hc3 & Hk3 & Hd3). destruct Hupd as (Ho4 & Hc4 & Hk4 & Hd4).
  right. exists meta, o, nid. eexists.
  split; [exact Emeta|]. split; [exact Eown|]. split; [exact Eord|].
  split; [|split; [rewrite Ho4, Ho3, Ho2; exact Ho1|]]; [reflexivity|]. split.
  - intros k Hk1 Hk2. rewrite Hk4, Hk3 by assumption. congruence.
  - intros k m' Hm'.
    assert (H3 : forall m1, metas s3 !! k = Some m1 ->
                   exists m0, metas s !! k = Some m0 /\ m_owner m1 = m_owner m0 /\ m_order m1 = m_order m0).
    { intros m1 Hm1'. destruct (decide (k = d)) as [->|Hne].
      - destruct (Hd3 _ Hm1') as (m0' & Hm0' & He & Hw0). exists m0'. split; [congruence|]. split; assumption.
      - rewrite (Hk3 _ Hne) in Hm1'. exists m1. split; [congruence|]. split; reflexivity. }
    destruct (decide (k = o_data o)) as [->|Hne].
    + destruct (Hd4 _ Hm') as (m1 & Hm1' & Hor & Hw1). destruct (H3 _ Hm1') as (m0' & Hm0' & Hw0 & He).
      exists m0'. split; [exact Hm0'|]. split; [congruence|].
      destruct Hor as [Hor|Hor]; [left; congruence|right; assumption].
    + rewrite (Hk4 _ Hne) in Hm'. destruct (H3 _ Hm') as (m0' & Hm0' & Hw0 & He).
      exists m0'. split; [exact Hm0'|]. split; [exact Hw0|]. left. exact He.
Qed.

Section RenewInv.
  Context (s0 : State) (sigdid : string) (L : list string) (Hlink : meta_order_link s0).

  Definition rauth (x : string) : Prop :=
    exists em, metas s0 !! x = Some em /\ m_owner em = sigdid /\ In x L.

  Definition RInv (s : State) : Prop :=
    (forall x em, metas s0 !! x = Some em -> metas s !! x = Some em \/ rauth x) /\
    (forall id o, orders s !! id = Some o -> orders s0 !! id = Some o \/ rauth (o_data o)) /\
    (forall x mm, metas s !! x = Some mm ->
       exists em0, metas s0 !! x = Some em0 /\ m_owner mm = m_owner em0 /\
                   (m_order mm = m_order em0 \/ forall o, orders s !! m_order mm = Some o -> rauth (o_data o))).

  Lemma RInv_init : RInv s0.
  Proof.
    split; [|split].
    - intros x em H. left. exact H.
    - intros id o H. left. exact H.
    - intros x mm H. exists mm. split; [exact H|]. split; [reflexivity|]. left. reflexivity.
  Qed.

  Lemma RInv_step d s s' : RInv s -> In d L -> renew_eff sigdid d s s' -> RInv s'.
  Proof.
    intros (I1 & I3 & J) Hd [->|(meta & o & nid & no & Emeta & Eown & Eord & Hdata & Hos & Hk & Hx)].
    { split; [|split]; assumption. }
    assert (Hauth : rauth (o_data o)).
    { destruct (J _ _ Emeta) as (em0 & Hem0 & Hw & Hor).
      destruct Hor as [Hor|Hor]; [|exact (Hor _ Eord)].
      destruct (I3 _ _ Eord) as [Ho0|Ha]; [|exact Ha].
      rewrite Hor in Ho0. rewrite (Hlink _ _ _ Hem0 Ho0).
      exists em0. split; [exact Hem0|]. split; [congruence|exact Hd]. }
    assert (Hauthd : rauth d).
    { destruct (J _ _ Emeta) as (em0 & Hem0 & Hw & _).
      exists em0. split; [exact Hem0|]. split; [congruence|exact Hd]. }
    split; [|split].
    - intros x em Hem. destruct (decide (x = o_data o)) as [->|Hne]; [right; exact Hauth|].
      destruct (decide (x = d)) as [->|Hne2]; [right; exact Hauthd|].
      rewrite (Hk _ Hne2 Hne). exact (I1 _ _ Hem).
    - intros id o' Ho'. rewrite Hos in Ho'. destruct (decide (id = nid)) as [->|Hne].
      + rewrite lookup_insert in Ho'. inversion Ho'; subst o'. right. rewrite Hdata. exact Hauth.
      + rewrite lookup_insert_ne in Ho' by congruence. exact (I3 _ _ Ho').
    - assert (Hord : forall mo, (forall o', orders s !! mo = Some o' -> rauth (o_data o')) ->
                                 forall o', orders s' !! mo = Some o' -> rauth (o_data o')).
      { intros mo Hmo o' Ho'. rewrite Hos in Ho'. destruct (decide (mo = nid)) as [->|Hne].
        - rewrite lookup_insert in Ho'. inversion Ho'; subst o'. rewrite Hdata. exact Hauth.
        - rewrite lookup_insert_ne in Ho' by congruence. exact (Hmo _ Ho'). }
      intros x mm Hmm.
      destruct (Hx _ _ Hmm) as (m0 & Hm0 & Hw & Hor).
      destruct (J _ _ Hm0) as (em0 & Hem0 & Hw0 & Hor0).
      exists em0. split; [exact Hem0|]. split; [congruence|].
      destruct Hor as [Hor|Hor].
      + rewrite Hor. destruct Hor0 as [Hor0|Hor0]; [left; exact Hor0|right; apply Hord; exact Hor0].
      + right. rewrite Hor. intros o' Ho'. rewrite Hos, lookup_insert in Ho'. inversion Ho'; subst o'.
        rewrite Hdata. exact Hauth.
  Qed.

  Lemma renew_loop cx m : forall l s s',
    (forall x, In x l -> In x L) -> RInv s -> forM l (renew_one cx m sigdid) s = Ok tt s' -> RInv s'.
  Proof.
    induction l as [|x r IH]; intros s s' Hsub Hinv H.
    - simpl in H. unfold ret in H. inversion H; subst. exact Hinv.
    - simpl in H. apply bind_ok in H. destruct H as ([] & s1 & H1 & H).
      apply renew_one_eff in H1.
      refine (IH s1 s' _ _ H).
      + intros y Hy. apply Hsub. right. exact Hy.
      + eapply RInv_step; [exact Hinv| |exact H1]. apply Hsub. left. reflexivity.
  Qed.
End RenewInv.

Theorem renew_authorized_partial : forall cx s m s' d data em,
  sig_sane (rn_owner m) (rn_sig m) -> meta_order_link s ->
  step cx s (ORenew m) = (s', OutTx COk d) ->
  metas s !! data = Some em -> metas s' !! data <> Some em ->
  signed_by s (rn_owner m) (rn_sig m) /\ may_admin em (rn_owner m) /\ In data (rn_data m).
Proof.
  intros cx s m s' d data em Hsane Hlink H Hem Hch. simpl in H. apply deliver_ok in H. unfold sao_renew in H.
  walk1 H. walk1 H.
  match goal with Hx : verify_sig _ _ _ = Some _ |- _ => destruct (verify_sig_sound _ _ _ _ Hsane Hx) as [-> Hs] end.
  split; [exact Hs|].
  do 4 walk1 H.
  pose proof (renew_loop s (rn_owner m) (rn_data m) Hlink cx m (rn_data m) s s' (fun x Hx => Hx)
                (RInv_init s (rn_owner m) (rn_data m)) H) as (I1 & _ & _).
  destruct (I1 _ _ Hem) as [Hl|(em' & Hem' & Ho & Hin)].
  - contradiction.
  - rewrite Hem in Hem'. inversion Hem'; subst em'. split; [exact Ho|exact Hin].
Qed.
Print Assumptions renew_authorized_partial.

(** ** findings: concrete witnesses *)
Module Witness.
  Definition cx : Ctx := {| cx_height := 100; cx_chain := "sao"; cx_time := 0; cx_seed := 0 |}.
  Definition np0 : NParams := mkNParams 0 0 0 0 1 0 "" 0 0 0 0.
  Definition sg : SigO :=
    {| so_owner := Some ("key", "ownerK"); so_kid := Some ("key", "ownerK", ""); so_keys := ["ownerK"] |}.
  Definition dids : DidState :=
    did_empty <| d_pay := list_to_map [("did:key:ownerK", "ownerAddr"); ("did:key:granteeK", "granteeAddr")] |>.

  (* a model owned by ownerK, last updated by the read-write grantee granteeK *)
  Definition meta1 : Meta :=
    mkMeta "did:key:ownerK" "alias" "group" 0 [] "cid" ["c1"] "" 0 "c1" "" 1000 0 [] ["did:key:granteeK"] 4 [0].
  Definition order1 : Order :=
    mkOrder "gw" "did:key:granteeK" "gw" "cid" 1000 3 1 [0] 1 1 1 0 10 "11111111-1111-1111-1111-111111111111" "c1" PRICE "".
  Definition shard1 : Shard := mkShard 0 2 1 "cid" 0 "" "sp1" 1000 0 [].
  Definition s1 : State :=
    mkState dids ∅ (list_to_map [("sp1", mkPledge 0 0 0 0 1000 1)]) ∅ (Some (mkPool 0 0 0 0 0 0 1000 0)) None ∅ ∅ ∅ np0
            (list_to_map [(0, order1)]) 1 (list_to_map [(0, shard1)]) 1
            (list_to_map [("11111111-1111-1111-1111-111111111111", meta1)]) ∅ ∅ ∅ ∅ ∅
            (list_to_map [("ownerAddr", 100); ("granteeAddr", 100); ("sp1", 100)]) 300 ∅ ∅ 0.
  Definition rn1 : RenewMsg :=
    {| rn_creator := "gw"; rn_provider := "gw"; rn_owner := "did:key:ownerK"; rn_duration := 3600; rn_timeout := 10;
       rn_data := ["11111111-1111-1111-1111-111111111111"]; rn_sig := sg |}.

  (* an ill-formed state: the latest order of model A names model B (and was placed by
     B's owner; the signer holds a read-write grant on B, so that the model keeper lets the
     renewal order update B) *)
  Definition dids2 : DidState :=
    did_empty <| d_pay := list_to_map [("did:key:ownerK", "ownerAddr"); ("did:key:otherK", "otherAddr")] |>.
  Definition idB : string := "bbbbbbbb-bbbb-bbbb-bbbb-bbbbbbbbbbbb".
  Definition metaA : Meta :=
    mkMeta "did:key:ownerK" "a" "g" 0 [] "cid" ["c1"] "" 0 "c1" "" 1000 0 [] [] 4 [0].
  Definition metaB : Meta :=
    mkMeta "did:key:otherK" "b" "g" 7 [] "cid" ["c1"] "" 0 "c1" "" 10 1 [] ["did:key:ownerK"] 4 [7].
  Definition order2 : Order :=
    mkOrder "gw" "did:key:otherK" "gw" "cid" 1000 3 1 [] 1 1 1 0 10 idB "c1" PRICE "".
  Definition s2 : State :=
    mkState dids2 ∅ ∅ ∅ (Some (mkPool 0 0 0 0 0 0 1000 0)) None ∅ ∅ ∅ np0
            (list_to_map [(0, order2)]) 1 ∅ 0
            (list_to_map [("A", metaA); (idB, metaB)]) ∅ ∅ ∅ ∅ ∅
            (list_to_map [("ownerAddr", 100); ("otherAddr", 100)]) 200 ∅ ∅ 0.
  Definition rn2 : RenewMsg :=
    {| rn_creator := "gw"; rn_provider := "gw"; rn_owner := "did:key:ownerK"; rn_duration := 3600; rn_timeout := 10;
       rn_data := ["A"]; rn_sig := sg |}.
End Witness.

(* Defect D20/D24, repaired by a fix commit in /repo (the renewal order belongs to the model owner who
   signed it). On the state of the finding -- the latest version written by a read-write grantee --
   the owner's renewal is paid from the owner's own account and is recorded in the model. *)
Theorem renew_payer_witness :
  let s := Witness.s1 in let m := Witness.rn1 in let s' := fst (step Witness.cx s (ORenew m)) in
  sig_sane (rn_owner m) (rn_sig m) /\ verify_sig s (rn_owner m) (rn_sig m) = Some (rn_owner m) /\
  snd (step Witness.cx s (ORenew m)) = OutTx COk "" /\
  pay_addr s (rn_owner m) = Some "ownerAddr" /\
  balance s "ownerAddr" = 100 /\ balance s' "ownerAddr" = 99 /\
  balance s "granteeAddr" = 100 /\ balance s' "granteeAddr" = 100 /\
  (exists em', metas s' !! "11111111-1111-1111-1111-111111111111" = Some em' /\ m_orders em' = [0; 1] /\ m_order em' = 1).
Proof.
  cbv zeta. split; [|split; [|repeat split; try (vm_compute; reflexivity)]].
  - intros mm id H. inversion H. reflexivity.
  - vm_compute. reflexivity.
  - eexists. split; [vm_compute; reflexivity|]. split; reflexivity.
Qed.
Print Assumptions renew_payer_witness.

(* The full statement of [renew_authorized] (without [meta_order_link]) is false of the model:
   on a state where the latest order of a listed model names ANOTHER model, the renewal order
   is appended to that other model (UpdateMeta goes by the order's data id) although it is
   neither listed nor owned by the signer. (ExtendMetaDuration goes by the listed id.) *)
Theorem renew_authorized_refuted : exists cx s m s' d data em,
  sig_sane (rn_owner m) (rn_sig m) /\ step cx s (ORenew m) = (s', OutTx COk d) /\
  metas s !! data = Some em /\ metas s' !! data <> Some em /\
  ~ may_admin em (rn_owner m) /\ ~ In data (rn_data m).
Proof.
  pose (r := step Witness.cx Witness.s2 (ORenew Witness.rn2)).
  (* one run: the transaction succeeds and model B has got a second order *)
  assert (E : (r.2, m_orders <$> metas r.1 !! Witness.idB) = (OutTx COk "", Some [7; 1])) by (vm_compute; reflexivity).
  apply pair_equal_spec in E as [E2 E1].
  exists Witness.cx, Witness.s2, Witness.rn2, r.1, "", Witness.idB, Witness.metaB.
  split; [intros mm id H; inversion H; reflexivity|].
  split; [rewrite <- E2; apply surjective_pairing|].
  split; [reflexivity|].
  split; [intros H; rewrite H in E1; discriminate E1|].
  split.
  - discriminate.
  - intros [Hi|[]]. discriminate.
Qed.
Print Assumptions renew_authorized_refuted.
