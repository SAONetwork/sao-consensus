(* C13 -- referential integrity of orders, shards and data models. The alias table ([Inv_alias]) is an
   invariant of every step; the three order/shard clauses are proved for the operations that do not write
   orders and shards, and for Renew. *)
From SaoVerif Require Import Base.Prelude Base.Ints Base.Dec Model.Did Model.Types Model.Monad Model.Bank Model.Select
     Model.Node Model.Storage Model.Sao Model.Hooks Model.App Model.Spec Model.Inv Model.Monitors
     Proofs.SelectFacts Proofs.Frame.
From RecordUpdate Require Import RecordUpdate.
Import RecordSetNotations.

(** * One alias per data model *)
(* Four projections of the state. [mm]: the two tables [Inv_alias] speaks of. [rf]: everything the handlers of
   orders and shards read and write; the operations of [frame_op] keep it. [rk] (below): what the three
   order/shard clauses are functions of -- of a shard only four fields, so that Renew, which rewrites the
   pledge and the renewal list of a shard, keeps it. [rko]: [rk] and the order counter, kept by the loop of Renew. *)
Definition mm (s : State) := (metas s, models s).
Definition rf (s : State) := (orders s, order_count s, shards s, shard_count s, expshards s).

Definition Ral (s s' : State) : Prop := Inv_alias s -> Inv_alias s'.
Global Instance Ral_preorder : PreOrder Ral.
Proof. split; [intros s H; exact H|intros a b c H1 H2 H; apply H2, H1, H]. Qed.

Lemma alias_frame s s' : mm s' = mm s -> Inv_alias s -> Inv_alias s'.
Proof. intros E. injection E as E1 E2. unfold Inv_alias. rewrite E1, E2. auto. Qed.

Lemma Ral_frame s s' : mm s' = mm s -> Ral s s'.
Proof. intros E H. eapply alias_frame; eassumption. Qed.
Global Hint Extern 1 (Ral _ _) => apply Ral_frame; reflexivity : mokside.

Lemma alias_upd s s' d m m' :
  Inv_alias s -> metas s !! d = Some m -> meta_key m' = meta_key m ->
  metas s' = <[d := m']> (metas s) -> models s' = models s -> Inv_alias s'.
Proof.
  intros [H1 H2] Em Ek E1 E2. unfold Inv_alias. rewrite E1, E2. split.
  - intros d0 m0 H. apply lookup_insert_Some in H. destruct H as [[<- <-]|[Hne H]].
    + rewrite Ek. apply H1, Em.
    + apply H1, H.
  - intros k d0 H. destruct (H2 k d0 H) as (m0 & Hm0 & Hk).
    destruct (decide (d = d0)) as [<-|Hne].
    + exists m'. rewrite lookup_insert. split; [reflexivity|]. rewrite Em in Hm0. injection Hm0 as <-. congruence.
    + exists m0. rewrite lookup_insert_ne by exact Hne. auto.
Qed.

Lemma alias_del s s' d m :
  Inv_alias s -> metas s !! d = Some m ->
  metas s' = delete d (metas s) -> models s' = delete (meta_key m) (models s) -> Inv_alias s'.
Proof.
  intros [H1 H2] Em E1 E2. unfold Inv_alias. rewrite E1, E2. split.
  - intros d0 m0 H. apply lookup_delete_Some in H. destruct H as [Hne H].
    rewrite lookup_delete_ne; [apply H1, H|].
    intros Ek. pose proof (H1 _ _ Em) as Ha. pose proof (H1 _ _ H) as Hb. rewrite <- Ek in Hb. congruence.
  - intros k d0 H. apply lookup_delete_Some in H. destruct H as [Hne H].
    destruct (H2 k d0 H) as (m0 & Hm0 & Hk). exists m0. split; [|exact Hk].
    rewrite lookup_delete_ne; [exact Hm0|]. intros <-. rewrite Em in Hm0. injection Hm0 as <-. congruence.
Qed.

Lemma alias_new s s' d m :
  Inv_alias s -> metas s !! d = None -> models s !! meta_key m = None ->
  metas s' = <[d := m]> (metas s) -> models s' = <[meta_key m := d]> (models s) -> Inv_alias s'.
Proof.
  intros [H1 H2] Em Ek E1 E2. unfold Inv_alias. rewrite E1, E2. split.
  - intros d0 m0 H. apply lookup_insert_Some in H. destruct H as [[<- <-]|[Hne H]].
    + apply lookup_insert.
    + rewrite lookup_insert_ne; [apply H1, H|]. intros Ek'. pose proof (H1 _ _ H) as Hb. rewrite <- Ek' in Hb. congruence.
  - intros k d0 H. apply lookup_insert_Some in H. destruct H as [[<- <-]|[Hne H]].
    + exists m. rewrite lookup_insert. auto.
    + destruct (H2 k d0 H) as (m0 & Hm0 & Hk). exists m0. split; [|exact Hk].
      rewrite lookup_insert_ne; [exact Hm0|]. intros <-. congruence.
Qed.

(* the frames of the handlers outside the storage modules (Frame.v) contain the tables of this file *)
Lemma nodid_tabs s s' : nodid s' = nodid s -> mm s' = mm s /\ rf s' = rf s.
Proof. intros E; injection E; intros; unfold mm, rf; split; congruence. Qed.
Lemma nofault_tabs s s' : nofault s' = nofault s -> mm s' = mm s /\ rf s' = rf s.
Proof. intros E; injection E; intros; unfold mm, rf; split; congruence. Qed.
Lemma nostake_tabs s s' : nostake s' = nostake s -> mm s' = mm s /\ rf s' = rf s.
Proof. intros E; injection E; intros; unfold mm, rf; split; congruence. Qed.
Lemma nomint_tabs s s' : nomint s' = nomint s -> mm s' = mm s /\ rf s' = rf s.
Proof. intros E; injection E; intros; unfold mm, rf; split; congruence. Qed.

(** the writers of [metas]/[models] look a record up in [s0], run computations that keep [mm], and write *)
(* [from s0 r]: what [mok Ral true] asks of the outcome [r] of a computation started in [s0] *)
Definition from (s0 : State) {A} (r : out A) : Prop :=
  match r with Ok _ s' | Err _ s' => Ral s0 s' | Panic _ => True | Hang => true = true end.

(* [returns_mm P m]: for the computation between the lookup and the write in [update_meta], [rollback_meta],
   [update_meta_status_commit]; [P] says that the record it returns has the key of the one looked up *)
Definition returns_mm {A} (P : A -> Prop) (m : M A) : Prop :=
  forall s, match m s with Ok a s' => mm s' = mm s /\ P a | Err _ s' => mm s' = mm s | _ => True end.
Lemma returns_mm_ret {A} (P : A -> Prop) a : P a -> returns_mm P (ret a).
Proof. intros H s. cbn. auto. Qed.
Lemma returns_mm_fail {A} (P : A -> Prop) e : returns_mm P (fail e).
Proof. intros s. reflexivity. Qed.
Lemma returns_mm_panic {A} (P : A -> Prop) e : returns_mm P (panic e).
Proof. intros s. exact I. Qed.
Lemma returns_mm_keeps {A} (m : M A) : mok (eqon mm) true m -> returns_mm (fun _ => True) m.
Proof. intros H s. specialize (H s). destruct (m s); auto. Qed.
Lemma returns_mm_bind {A B} (P : B -> Prop) (m : M A) (f : A -> M B) : mok (eqon mm) true m -> (forall a, returns_mm P (f a)) -> returns_mm P (bind m f).
Proof.
  intros Hm Hf s. unfold bind. specialize (Hm s). destruct (m s) as [a s1|e s1|e|]; auto.
  specialize (Hf a s1). unfold eqon in Hm. destruct (f a s1) as [b s2|e s2|e|]; auto.
  - destruct Hf as [Hf1 Hf2]. split; [congruence|exact Hf2].
  - congruence.
Qed.

Lemma from_bind {A B} (P : A -> Prop) (m : M A) (k : A -> M B) s0 s :
  returns_mm P m -> mm s = mm s0 -> (forall a s1, P a -> mm s1 = mm s0 -> from s0 (k a s1)) -> from s0 (bind m k s).
Proof.
  intros Hm E Hk. unfold bind. specialize (Hm s). destruct (m s) as [a s1|e s1|e|]; [|apply Ral_frame; congruence|exact I|reflexivity].
  destruct Hm as [E1 Pa]. apply Hk; [exact Pa|congruence].
Qed.
Lemma from_upd s0 s d m m' :
  metas s0 !! d = Some m -> mm s = mm s0 -> meta_key m' = meta_key m ->
  from s0 (modify (fun t => t <| metas ::= <[d := m']> |>) s).
Proof. intros Em E Ek HI. injection E as E1 E2. eapply (alias_upd s0 _ d m m' HI Em Ek); cbn; congruence. Qed.
Lemma from_del {B} (k : M B) s d m :
  metas s !! d = Some m -> mok (eqon mm) true k ->
  from s ((modify (fun t => t <| metas ::= delete d |> <| models ::= delete (meta_key m) |>) ;;; k) s).
Proof.
  intros Em Hk. unfold bind. cbn [modify]. specialize (Hk (s <| metas ::= delete d |> <| models ::= delete (meta_key m) |>)).
  destruct (k _) as [b s1|e s1|e|]; [| |exact I|reflexivity];
    (injection Hk as E1 E2; intros HI; eapply (alias_del s _ d m HI Em); [rewrite E1|rewrite E2]; reflexivity).
Qed.

Lemma al_of_mm {A} (m : M A) : mok (eqon mm) true m -> mok Ral true m.
Proof. apply mok_weaken; [exact Ral_frame|auto]. Qed.

Lemma mok_of_frame {T A} (f : State -> T) (m : M A) :
  (forall s s', f s' = f s -> mm s' = mm s /\ rf s' = rf s) -> mok (eqon f) true m ->
  mok Ral true m /\ mok (eqon rf) true m.
Proof.
  intros Hf Hm. split; (eapply mok_weaken; [|auto|exact Hm]); intros s s' E; [apply Ral_frame|]; apply Hf, E.
Qed.

Section Alias.
  Context (cx : Ctx).
  Local Notation h := true.
  Local Notation R := Ral.
  Local Notation K := (eqon mm).

  (** the functions that write neither table keep both literally (needed between a lookup and the write that
      follows it) *)
  Lemma remove_data_expire_mm d a : mok K h (remove_data_expire d a).
  Proof. unfold remove_data_expire. mok_tac. Qed.
  Lemma set_data_expire_mm d a : mok K h (set_data_expire d a).
  Proof. unfold set_data_expire. mok_tac. Qed.
  Hint Resolve remove_data_expire_mm set_data_expire_mm : mok.
  Lemma reset_meta_duration_mm d m : mok K h (reset_meta_duration cx d m).
  Proof. unfold reset_meta_duration. mok_tac. Qed.
  Lemma send_strict_mm f t a : mok K h (send_strict f t a).
  Proof. apply mok_send_strict; [exact _|intros; exact eq_refl]. Qed.
  Hint Resolve send_strict_mm : mok.
  Lemma send_to_did_balances_mm md d amt : mok K h (send_to_did_balances md d amt).
  Proof. apply mok_send_to_did_balances, _. Qed.
  Hint Resolve send_to_did_balances_mm : mok.
  Lemma coin_sub_mm a b : mok K h (coin_sub a b).
  Proof. unfold coin_sub. mok_tac. Qed.
  Hint Resolve coin_sub_mm : mok.
  Lemma repay_debt_mm sp rw : mok K h (repay_debt sp rw).
  Proof. unfold repay_debt. mok_tac. Qed.
  Hint Resolve repay_debt_mm : mok.
  Lemma shard_release_mm sp sh : mok K h (shard_release sp sh).
  Proof. unfold shard_release. mok_tac. Qed.
  Hint Resolve shard_release_mm : mok.
  Lemma worker_release_mm o sh : mok K h (worker_release cx o sh).
  Proof. unfold worker_release. mok_tac. Qed.
  Hint Resolve worker_release_mm : mok.
  Lemma market_withdraw_mm oid o : mok K h (market_withdraw cx oid o).
  Proof. unfold market_withdraw. mok_tac. mok_loop; mok_tac. Qed.
  Hint Resolve market_withdraw_mm : mok.
  Lemma order_terminate_mm oid refund : mok K h (order_terminate oid refund).
  Proof. unfold order_terminate. mok_tac. Qed.
  Hint Resolve order_terminate_mm : mok.
  Lemma model_terminate_order_mm oid o : mok K h (model_terminate_order cx oid o).
  Proof. unfold model_terminate_order. mok_tac. Qed.
  Hint Resolve model_terminate_order_mm : mok.
  Lemma remove_shards_mm ids : mok K h (remove_shards ids).
  Proof. unfold remove_shards. mok_tac. Qed.
  Hint Resolve remove_shards_mm : mok.
  Lemma force_push_loop_mm lc ro : forall acc, mok K h (force_push_loop cx ro lc acc).
  Proof. induction ro as [|oid ro IH]; intros acc; cbn [force_push_loop]; mok_tac. Qed.

  Lemma send_strict_al f t a : mok R h (send_strict f t a).
  Proof. apply al_of_mm, send_strict_mm. Qed.
  Hint Resolve send_strict_al : mok.
  Lemma send_lenient_al f t a : mok R h (send_lenient f t a).
  Proof. apply mok_send_lenient; [exact _|intros; apply Ral_frame; reflexivity]. Qed.
  Hint Resolve send_lenient_al : mok.
  Lemma coin_sub_al a b : mok R h (coin_sub a b).
  Proof. apply al_of_mm, coin_sub_mm. Qed.
  Hint Resolve coin_sub_al : mok.
  Lemma reward_age_al p : mok R h (reward_age p).
  Proof. unfold reward_age. mok_tac. Qed.
  Hint Resolve reward_age_al : mok.
  Lemma end_block_node_al : mok R h (end_block_node cx).
  Proof. unfold end_block_node, do_penalty. mok_tac. Qed.
  Lemma node_create_al c : mok R h (node_create cx c).
  Proof. unfold node_create. mok_tac. Qed.
  Lemma node_reset_al m : mok R h (node_reset cx m).
  Proof. unfold node_reset. mok_tac. Qed.
  Lemma add_vstorage_al c sz : mok R h (add_vstorage c sz).
  Proof. unfold add_vstorage. mok_tac. Qed.
  Lemma remove_vstorage_al c sz : mok R h (remove_vstorage c sz).
  Proof. unfold remove_vstorage. mok_tac. Qed.
  Lemma repay_debt_al sp rw : mok R h (repay_debt sp rw).
  Proof. apply al_of_mm, repay_debt_mm. Qed.
  Hint Resolve repay_debt_al : mok.
  Lemma shard_pledge_al id sh price : mok R h (shard_pledge id sh price).
  Proof. unfold shard_pledge. mok_tac. Qed.
  Hint Resolve shard_pledge_al : mok.
  Lemma shard_release_al sp sh : mok R h (shard_release sp sh).
  Proof. apply al_of_mm, shard_release_mm. Qed.
  Hint Resolve shard_release_al : mok.
  Lemma market_claim_al sp : mok R h (market_claim cx sp).
  Proof. unfold market_claim. mok_tac. Qed.
  Hint Resolve market_claim_al : mok.
  Lemma claim_reward_al c : mok R h (claim_reward cx c).
  Proof. unfold claim_reward. mok_tac. Qed.
  Lemma increase_reputation_al n v : mok R h (increase_reputation n v).
  Proof. unfold increase_reputation. mok_tac. Qed.
  Hint Resolve increase_reputation_al : mok.
  Lemma random_sp_m_al count ignore size : mok R h (random_sp_m cx count ignore size).
  Proof. apply mok_random_sp_m; try exact _; [right; reflexivity|intros; apply Ral_frame; reflexivity]. Qed.
  Hint Resolve random_sp_m_al : mok.
  Lemma send_to_did_balances_al md d amt : mok R h (send_to_did_balances md d amt).
  Proof. apply al_of_mm, send_to_did_balances_mm. Qed.
  Hint Resolve send_to_did_balances_al : mok.
  Lemma worker_release_al o sh : mok R h (worker_release cx o sh).
  Proof. apply al_of_mm, worker_release_mm. Qed.
  Hint Resolve worker_release_al : mok.
  Lemma worker_append_al o sh : mok R h (worker_append cx o sh).
  Proof. unfold worker_append. mok_tac. Qed.
  Hint Resolve worker_append_al : mok.
  Lemma market_deposit_al o : mok R h (market_deposit o).
  Proof. unfold market_deposit. mok_tac. Qed.
  Hint Resolve market_deposit_al : mok.
  Lemma market_withdraw_al oid o : mok R h (market_withdraw cx oid o).
  Proof. apply al_of_mm, market_withdraw_mm. Qed.
  Hint Resolve market_withdraw_al : mok.
  Lemma append_order_al o : mok R h (append_order o).
  Proof. unfold append_order. mok_tac. Qed.
  Hint Resolve append_order_al : mok.
  Lemma append_shard_al sh : mok R h (append_shard sh).
  Proof. unfold append_shard. mok_tac. Qed.
  Hint Resolve append_shard_al : mok.
  Lemma new_shard_task_al oid o p : mok R h (new_shard_task oid o p).
  Proof. unfold new_shard_task. mok_tac. Qed.
  Hint Resolve new_shard_task_al : mok.
  Lemma gen_shards_al oid sps : forall o, mok R h (gen_shards oid o sps).
  Proof. induction sps as [|sp sps IH]; intros o; cbn [gen_shards]; mok_tac. Qed.
  Hint Resolve gen_shards_al : mok.
  Lemma generate_shards_al oid o sps : mok R h (generate_shards oid o sps).
  Proof. unfold generate_shards. mok_tac. Qed.
  Hint Resolve generate_shards_al : mok.
  Lemma new_order_al o sps : mok R h (new_order cx o sps).
  Proof. unfold new_order. mok_tac. Qed.
  Hint Resolve new_order_al : mok.
  Lemma renew_order_al o : mok R h (renew_order o).
  Proof. unfold renew_order. mok_tac. Qed.
  Hint Resolve renew_order_al : mok.
  Lemma order_terminate_al oid refund : mok R h (order_terminate oid refund).
  Proof. apply al_of_mm, order_terminate_mm. Qed.
  Hint Resolve order_terminate_al : mok.
  Lemma refund_order_al oid : mok R h (refund_order oid).
  Proof. unfold refund_order. mok_tac. Qed.
  Hint Resolve refund_order_al : mok.
  Lemma set_data_expire_al d a : mok R h (set_data_expire d a).
  Proof. apply al_of_mm, set_data_expire_mm. Qed.
  Hint Resolve set_data_expire_al : mok.
  Lemma remove_data_expire_al d a : mok R h (remove_data_expire d a).
  Proof. apply al_of_mm, remove_data_expire_mm. Qed.
  Hint Resolve remove_data_expire_al : mok.
  Lemma reset_meta_duration_al d m : mok R h (reset_meta_duration cx d m).
  Proof. apply al_of_mm, reset_meta_duration_mm. Qed.
  Hint Resolve reset_meta_duration_al : mok.
  Lemma model_terminate_order_al oid o : mok R h (model_terminate_order cx oid o).
  Proof. apply al_of_mm, model_terminate_order_mm. Qed.
  Hint Resolve model_terminate_order_al : mok.
  Lemma remove_shards_al ids : mok R h (remove_shards ids).
  Proof. apply al_of_mm, remove_shards_mm. Qed.
  Hint Resolve remove_shards_al : mok.
  Lemma force_push_loop_al lc ro : forall acc, mok R h (force_push_loop cx ro lc acc).
  Proof. intros acc. apply al_of_mm, force_push_loop_mm. Qed.
  Hint Resolve force_push_loop_al : mok.
  Lemma set_timeout_block_al oid a : mok R h (set_timeout_block oid a).
  Proof. unfold set_timeout_block. mok_tac. Qed.
  Hint Resolve set_timeout_block_al : mok.
  Lemma set_expired_shard_block_al sid a : mok R h (set_expired_shard_block sid a).
  Proof. unfold set_expired_shard_block. mok_tac. Qed.
  Hint Resolve set_expired_shard_block_al : mok.
  Lemma get_sps_al o d : mok R h (get_sps cx o d).
  Proof. unfold get_sps. mok_tac. Qed.
  Hint Resolve get_sps_al : mok.

  Lemma new_meta_al o d m : mok R h (new_meta cx o d m).
  Proof.
    intros s. unfold new_meta, bind, get.
    destruct (negb _); [cbn; reflexivity|].
    destruct (bool_decide (is_Some (metas s !! d))) eqn:E1; [cbn; reflexivity|].
    destruct (bool_decide (is_Some (models s !! meta_key m))) eqn:E2; [cbn; reflexivity|].
    apply bool_decide_eq_false in E1. apply bool_decide_eq_false in E2.
    apply eq_None_not_Some in E1. apply eq_None_not_Some in E2.
    cbn. intros HI. eapply (alias_new s _ d m HI E1 E2); reflexivity.
  Qed.
  Hint Resolve new_meta_al : mok.

  Lemma extend_meta_duration_al d e : mok R h (extend_meta_duration d e).
  Proof.
    intros s. unfold extend_meta_duration, bind at 1, get.
    destruct (metas s !! d) as [m|] eqn:Em; [|cbn; reflexivity].
    destruct (m_duration m <? _); [|cbn; reflexivity].
    apply (from_bind (fun _ => True)); [apply returns_mm_keeps; auto with mok|reflexivity|intros _ s1 _ E1].
    apply (from_bind (fun _ => True)); [apply returns_mm_keeps; auto with mok|exact E1|intros _ s2 _ E2].
    apply (from_upd s s2 d m); [exact Em|exact E2|reflexivity].
  Qed.
  Hint Resolve extend_meta_duration_al : mok.

  Lemma delete_meta_al d : mok R h (delete_meta d).
  Proof.
    intros s. unfold delete_meta, bind at 1, get.
    destruct (metas s !! d) as [m|] eqn:Em; [|cbn; reflexivity].
    apply from_del; [exact Em|auto with mok].
  Qed.
  Hint Resolve delete_meta_al : mok.

  Lemma update_permission_al ow d ro rw : mok R h (update_permission ow d ro rw).
  Proof.
    intros s. unfold update_permission, bind, get.
    destruct (metas s !! d) as [m|] eqn:Em; [|cbn; reflexivity].
    destruct (negb _); [cbn; reflexivity|].
    apply (from_upd s s d m); [exact Em|reflexivity|reflexivity].
  Qed.
  Hint Resolve update_permission_al : mok.

  Lemma update_meta_status_commit_al oid o : mok R h (update_meta_status_commit cx oid o).
  Proof.
    intros s. unfold update_meta_status_commit, bind at 1, get.
    destruct (metas s !! o_data o) as [m|] eqn:Em; [|cbn; reflexivity].
    destruct (negb _); [cbn; reflexivity|].
    destruct (_ <? cx_height cx); [cbn; reflexivity|].
    apply (from_bind (fun m1 => meta_key m1 = meta_key m)); [|reflexivity|].
    - destruct (_ <? _); [|apply returns_mm_ret; reflexivity].
      apply returns_mm_bind; [auto with mok|intros _]. apply returns_mm_bind; [auto with mok|intros _]. apply returns_mm_ret. reflexivity.
    - intros m1 s1 Hk E1. apply (from_upd s s1 (o_data o) m); [exact Em|exact E1|exact Hk].
  Qed.
  Hint Resolve update_meta_status_commit_al : mok.

  Lemma reset_meta_duration_returns d m1 : returns_mm (fun m2 => meta_key m2 = meta_key m1) (reset_meta_duration cx d m1).
  Proof.
    unfold reset_meta_duration. apply returns_mm_bind; [apply mok_get; exact _|intros s]. cbv zeta.
    destruct (_ =? _); [apply returns_mm_ret; reflexivity|].
    apply returns_mm_bind; [auto with mok|intros _]. apply returns_mm_bind; [auto with mok|intros _]. apply returns_mm_ret. reflexivity.
  Qed.

  Lemma rollback_meta_al d : mok R h (rollback_meta cx d).
  Proof.
    intros s. unfold rollback_meta, bind at 1, get.
    destruct (metas s !! d) as [m|] eqn:Em; [|cbn; reflexivity].
    destruct (last_opt (m_commits m)) as [lastv|]; [|apply from_del; [exact Em|auto with mok]].
    destruct (last_opt (m_orders m)) as [lo|]; [|exact I].
    eapply from_bind; [apply reset_meta_duration_returns|reflexivity|].
    intros m2 s1 Hk E1. apply (from_upd s s1 d m); [exact Em|exact E1|exact Hk].
  Qed.
  Hint Resolve rollback_meta_al : mok.

  Lemma update_meta_al oid o : mok R h (update_meta cx oid o).
  Proof.
    intros s. unfold update_meta. unfold bind at 1. unfold get.
    destruct (negb (Nat.eqb _ _)); [cbn; reflexivity|].
    destruct (metas s !! o_data o) as [m|] eqn:Em; [|cbn; reflexivity].
    destruct (negb (may_update _ _)); [cbn; reflexivity|].
    apply (from_bind (fun m1 => meta_key m1 = meta_key m)); [|reflexivity|].
    - destruct (o_op o =? 1); [apply returns_mm_ret; reflexivity|].
      destruct (o_op o =? 2).
      + destruct (last_opt (m_commits m)) as [lastv|]; [|apply returns_mm_panic].
        apply returns_mm_bind; [apply force_push_loop_mm|]. intros [rev_left sids].
        apply returns_mm_bind; [apply remove_shards_mm|]. intros _. exact (reset_meta_duration_returns _ _).
      + destruct (o_op o =? 3); [apply returns_mm_ret; reflexivity|apply returns_mm_fail].
    - intros m1 s1 Hk E1. apply (from_upd s s1 (o_data o) m); [exact Em|exact E1|exact Hk].
  Qed.
  Hint Resolve update_meta_al : mok.

  Lemma cancel_order_al oid : mok R h (cancel_order cx oid).
  Proof. unfold cancel_order. mok_tac. Qed.
  Hint Resolve cancel_order_al : mok.
  Lemma end_block_model_al : mok R h (end_block_model cx).
  Proof. unfold end_block_model. mok_tac. Qed.

  Lemma sao_store_al m : mok R h (sao_store cx m).
  Proof. unfold sao_store. mok_tac. Qed.
  Lemma sao_ready_al c p oid : mok R h (sao_ready cx c p oid).
  Proof. unfold sao_ready. mok_tac. Qed.
  Lemma complete_migration_al oid o sid sh : mok R h (complete_migration cx oid o sid sh).
  Proof. unfold complete_migration. mok_tac. Qed.
  Hint Resolve complete_migration_al : mok.
  Lemma sao_complete_al c p oid cid sz ok : mok R h (sao_complete cx c p oid cid sz ok).
  Proof. unfold sao_complete. mok_tac. Qed.
  Lemma sao_cancel_al c p oid : mok R h (sao_cancel cx c p oid).
  Proof. unfold sao_cancel. mok_tac. Qed.
  Lemma renew_one_al m sd d : mok R h (renew_one cx m sd d).
  Proof. unfold renew_one. mok_tac. mok_loop; mok_tac. Qed.
  Hint Resolve renew_one_al : mok.
  Lemma sao_renew_al m : mok R h (sao_renew cx m).
  Proof. unfold sao_renew. mok_tac. Qed.
  Lemma sao_terminate_al c p ow d sg : mok R h (sao_terminate cx c p ow d sg).
  Proof. unfold sao_terminate. mok_tac. mok_loop; mok_tac. Qed.
  Lemma migrate_one_al p d : mok R h (migrate_one cx p d).
  Proof. unfold migrate_one. mok_tac. mok_loop; mok_tac. Qed.
  Hint Resolve migrate_one_al : mok.
  Lemma sao_migrate_al c p d : mok R h (sao_migrate cx c p d).
  Proof. unfold sao_migrate. mok_tac. Qed.
  Lemma sao_update_permission_al c p ow d ro rw sg v : mok R h (sao_update_permission cx c p ow d ro rw sg v).
  Proof. unfold sao_update_permission. mok_tac. Qed.
  Lemma handle_timeout_order_al oid : mok R h (handle_timeout_order cx oid).
  Proof. unfold handle_timeout_order. mok_tac. all: try (mok_loop; mok_tac). Qed.
  Hint Resolve handle_timeout_order_al : mok.
  Lemma handle_expired_shard_al sid : mok R h (handle_expired_shard cx sid).
  Proof. unfold handle_expired_shard. mok_tac. Qed.
  Hint Resolve handle_expired_shard_al : mok.
  Lemma end_block_sao_al : mok R h (end_block_sao cx).
  Proof. unfold end_block_sao. mok_tac. Qed.

  Lemma end_block_al evs : mok R h (end_block cx evs).
  Proof.
    unfold end_block.
    apply mok_bind; try exact _; [apply (mok_of_frame _ _ nostake_tabs), staking_tx_ok|intros _].
    apply mok_bind; try exact _; [apply end_block_sao_al|intros _].
    apply mok_bind; try exact _; [apply end_block_node_al|intros _; apply end_block_model_al].
  Qed.

  Lemma tx_al op m : tx_of cx op = Some m -> mok R h m.
  Proof.
    intros E. destruct op; try discriminate E; cbn [tx_of] in E; injection E as <-.
    - apply (mok_of_frame _ _ nodid_tabs), lift_did_ok.
    - apply node_create_al.
    - apply node_reset_al.
    - apply add_vstorage_al.
    - apply remove_vstorage_al.
    - apply mok_bind; try exact _; [apply claim_reward_al|intros; apply mok_ret; exact _].
    - apply sao_store_al.
    - apply sao_ready_al.
    - apply sao_complete_al.
    - apply sao_cancel_al.
    - apply sao_renew_al.
    - apply sao_terminate_al.
    - apply sao_migrate_al.
    - apply sao_update_permission_al.
    - apply (mok_of_frame _ _ nofault_tabs), sao_report_faults_ok.
    - apply (mok_of_frame _ _ nofault_tabs), sao_recover_faults_ok.
    - apply send_strict_al.
    - apply (mok_of_frame _ _ nostake_tabs), staking_tx_ok.
  Qed.
End Alias.

Theorem step_alias : forall cx s op, Inv_alias s -> Inv_alias (fst (step cx s op)).
Proof.
  intros cx s op. apply (step_rel Ral (fun _ => True) cx); auto.
  - intros s0 s' _. apply Ral_frame. reflexivity.
  - intros evs _ s0 p. apply Ral_frame. reflexivity.
  - intros _. apply (mok_of_frame _ _ nomint_tabs), begin_block_ok.
  - intros evs _. apply end_block_al.
  - intros op' m _ E. eapply tx_al, E.
Qed.
Print Assumptions step_alias.

Theorem run_alias : forall tr s, Inv_alias s -> Inv_alias (run tr s).
Proof.
  intros tr s. apply (run_preserves Inv_alias (fun _ _ => True)); [|exact I].
  intros cx op tr' t _ H. split; [apply step_alias, H|exact I].
Qed.
Print Assumptions run_alias.

(** * What the three order/shard clauses depend on *)
Definition key4 (sh : Shard) : Z * Z * Z * Z := (sh_order sh, sh_status sh, sh_created sh, sh_duration sh).
Definition rk (s : State) := (orders s, key4 <$> shards s, expshards s).

Definition Inv_osc (s : State) : Prop :=
  Inv_order_shards s /\ Inv_shard_order s /\ Inv_completed_scheduled s.

Lemma Inv_ref_split s : Inv_ref s <-> Inv_alias s /\ Inv_osc s.
Proof. unfold Inv_ref, Inv_osc. tauto. Qed.

Lemma rf_rk s s' : rf s' = rf s -> rk s' = rk s.
Proof. intros E. injection E as E1 _ E3 _ E5. unfold rk. rewrite E1, E3, E5. reflexivity. Qed.

Lemma key4_lookup s s' id sh' :
  key4 <$> shards s' = key4 <$> shards s -> shards s' !! id = Some sh' ->
  exists sh, shards s !! id = Some sh /\ key4 sh = key4 sh'.
Proof.
  intros E H. assert (G : (key4 <$> shards s) !! id = Some (key4 sh')) by (rewrite <- E, lookup_fmap, H; reflexivity).
  rewrite lookup_fmap in G. destruct (shards s !! id) as [sh|] eqn:Hs; [|discriminate G].
  cbn in G. exists sh. split; [reflexivity|congruence].
Qed.

Lemma key4_is_Some s s' id :
  key4 <$> shards s' = key4 <$> shards s -> is_Some (shards s !! id) -> is_Some (shards s' !! id).
Proof.
  intros E [sh H]. assert (G : (key4 <$> shards s') !! id = Some (key4 sh)) by (rewrite E, lookup_fmap, H; reflexivity).
  rewrite lookup_fmap in G. destruct (shards s' !! id) as [sh'|]; [eexists; reflexivity|discriminate G].
Qed.

Lemma osc_frame s s' : rk s' = rk s -> Inv_osc s -> Inv_osc s'.
Proof.
  intros E (H1 & H2 & H3). injection E as E1 E2 E3. unfold Inv_osc, Inv_order_shards, Inv_shard_order, Inv_completed_scheduled.
  rewrite E1, E3. split; [|split].
  - intros oid o Ho. destruct (H1 oid o Ho) as [Hn He]. split; [exact Hn|].
    intros id Hid. eapply key4_is_Some; [exact E2|apply He, Hid].
  - intros id sh' Hs. destruct (key4_lookup s s' id sh' E2 Hs) as (sh & Hsh & Hk). injection Hk as Hk1 _ _ _.
    rewrite <- Hk1. apply (H2 id sh Hsh).
  - intros id sh' Hs Hst. destruct (key4_lookup s s' id sh' E2 Hs) as (sh & Hsh & Hk). injection Hk as _ Hk2 Hk3 Hk4.
    rewrite <- Hk3, <- Hk4. apply (H3 id sh Hsh). congruence.
Qed.

(** ** the operations that touch none of the three tables *)
Definition frame_op (op : Op) : bool :=
  match op with
  | OBeginBlock | ODid _ | ONodeCreate _ | ONodeReset _ | OAddVstorage _ _ | ORemoveVstorage _ _ | OClaimReward _
  | OUpdatePermission _ _ _ _ _ _ _ _ | OReportFaults _ _ _ | ORecoverFaults _ _ _ | OSend _ _ _ | OStaking _ | OSimulate _ => true
  | _ => false
  end.

Section RfPass.
  Context (cx : Ctx).
  Local Notation h := true.
  Local Notation R := (eqon rf).
  Lemma send_strict_rf f t a : mok R h (send_strict f t a).
  Proof. apply mok_send_strict; [exact _|intros; exact eq_refl]. Qed.
  Hint Resolve send_strict_rf : mok.
  Lemma send_lenient_rf f t a : mok R h (send_lenient f t a).
  Proof. apply mok_send_lenient; [exact _|intros; exact eq_refl]. Qed.
  Hint Resolve send_lenient_rf : mok.
  Lemma coin_sub_rf a b : mok R h (coin_sub a b).
  Proof. unfold coin_sub. mok_tac. Qed.
  Hint Resolve coin_sub_rf : mok.
  Lemma node_create_rf c : mok R h (node_create cx c).
  Proof. unfold node_create. mok_tac. Qed.
  Lemma node_reset_rf m : mok R h (node_reset cx m).
  Proof. unfold node_reset. mok_tac. Qed.
  Lemma add_vstorage_rf c sz : mok R h (add_vstorage c sz).
  Proof. unfold add_vstorage. mok_tac. Qed.
  Lemma remove_vstorage_rf c sz : mok R h (remove_vstorage c sz).
  Proof. unfold remove_vstorage. mok_tac. Qed.
  Lemma repay_debt_rf sp rw : mok R h (repay_debt sp rw).
  Proof. unfold repay_debt. mok_tac. Qed.
  Hint Resolve repay_debt_rf : mok.
  Lemma shard_release_rf sp sh : mok R h (shard_release sp sh).
  Proof. unfold shard_release. mok_tac. Qed.
  Hint Resolve shard_release_rf : mok.
  Lemma market_claim_rf sp : mok R h (market_claim cx sp).
  Proof. unfold market_claim. mok_tac. Qed.
  Hint Resolve market_claim_rf : mok.
  Lemma claim_reward_rf c : mok R h (claim_reward cx c).
  Proof. unfold claim_reward. mok_tac. Qed.
  Lemma update_permission_rf ow d ro rw : mok R h (update_permission ow d ro rw).
  Proof. unfold update_permission. mok_tac. Qed.
  Hint Resolve update_permission_rf : mok.
  Lemma sao_update_permission_rf c p ow d ro rw sg v : mok R h (sao_update_permission cx c p ow d ro rw sg v).
  Proof. unfold sao_update_permission. mok_tac. Qed.
  Lemma set_data_expire_rf d a : mok R h (set_data_expire d a).
  Proof. unfold set_data_expire. mok_tac. Qed.
  Hint Resolve set_data_expire_rf : mok.
  Lemma remove_data_expire_rf d a : mok R h (remove_data_expire d a).
  Proof. unfold remove_data_expire. mok_tac. Qed.
  Hint Resolve remove_data_expire_rf : mok.
  Lemma reset_meta_duration_rf d m : mok R h (reset_meta_duration cx d m).
  Proof. unfold reset_meta_duration. mok_tac. Qed.
  Hint Resolve reset_meta_duration_rf : mok.
  Lemma extend_meta_duration_rf d e : mok R h (extend_meta_duration d e).
  Proof. unfold extend_meta_duration. mok_tac. Qed.
  Hint Resolve extend_meta_duration_rf : mok.
  Lemma rollback_meta_rf d : mok R h (rollback_meta cx d).
  Proof. unfold rollback_meta. mok_tac. Qed.
  Hint Resolve rollback_meta_rf : mok.
  Lemma refund_order_rf oid : mok R h (refund_order oid).
  Proof. unfold refund_order. mok_tac. Qed.
  Hint Resolve refund_order_rf : mok.
  Lemma increase_reputation_rf n v : mok R h (increase_reputation n v).
  Proof. unfold increase_reputation. mok_tac. Qed.
  Hint Resolve increase_reputation_rf : mok.
  Lemma worker_release_rf o sh : mok R h (worker_release cx o sh).
  Proof. unfold worker_release. mok_tac. Qed.
  Hint Resolve worker_release_rf : mok.
  Lemma worker_append_rf o sh : mok R h (worker_append cx o sh).
  Proof. unfold worker_append. mok_tac. Qed.
  Hint Resolve worker_append_rf : mok.
  Lemma market_deposit_rf o : mok R h (market_deposit o).
  Proof. unfold market_deposit. mok_tac. Qed.
  Hint Resolve market_deposit_rf : mok.
  Lemma random_sp_m_rf count ignore size : mok R h (random_sp_m cx count ignore size).
  Proof. apply mok_random_sp_m; try exact _; [right; reflexivity|intros; exact eq_refl]. Qed.
  Hint Resolve random_sp_m_rf : mok.
  Lemma set_timeout_block_rf oid a : mok R h (set_timeout_block oid a).
  Proof. unfold set_timeout_block. mok_tac. Qed.
  Hint Resolve set_timeout_block_rf : mok.
  Lemma get_sps_rf o d : mok R h (get_sps cx o d).
  Proof. unfold get_sps. mok_tac. Qed.
  Hint Resolve get_sps_rf : mok.
  (* a renewal (operation 3) or a plain commit (operation 1) only edits the metadata record *)
  Lemma update_meta_rf oid o : o_op o <> 2 -> mok R h (update_meta cx oid o).
  Proof.
    intros Hop. unfold update_meta. apply mok_bind; try exact _; [apply mok_get; exact _|intros s0].
    destruct (negb (Nat.eqb _ _)); [mok_tac|]. destruct (metas s0 !! o_data o) as [m|]; [|mok_tac].
    destruct (negb (may_update _ _)); [mok_tac|].
    apply mok_bind; try exact _; [|intros ?; mok_tac].
    destruct (o_op o =? 1); [mok_tac|]. destruct (o_op o =? 2) eqn:E2; [apply Z.eqb_eq in E2; contradiction|]. mok_tac.
  Qed.
  Lemma new_meta_rf o d m : mok R h (new_meta cx o d m).
  Proof. unfold new_meta. mok_tac. Qed.
  Lemma update_meta_status_commit_rf oid o : mok R h (update_meta_status_commit cx oid o).
  Proof. unfold update_meta_status_commit. mok_tac. Qed.

  Lemma tx_rf op m : frame_op op = true -> tx_of cx op = Some m -> mok R h m.
  Proof.
    intros Hf E. destruct op; try discriminate Hf; try discriminate E; cbn [tx_of] in E; injection E as <-.
    - apply (mok_of_frame _ _ nodid_tabs), lift_did_ok.
    - apply node_create_rf.
    - apply node_reset_rf.
    - apply add_vstorage_rf.
    - apply remove_vstorage_rf.
    - apply mok_bind; try exact _; [apply claim_reward_rf|intros; apply mok_ret; exact _].
    - apply sao_update_permission_rf.
    - apply (mok_of_frame _ _ nofault_tabs), sao_report_faults_ok.
    - apply (mok_of_frame _ _ nofault_tabs), sao_recover_faults_ok.
    - apply send_strict_rf.
    - apply (mok_of_frame _ _ nostake_tabs), staking_tx_ok.
  Qed.
End RfPass.

Lemma step_frame_rf cx s op : frame_op op = true -> rf (fst (step cx s op)) = rf s.
Proof.
  intros Hf. apply (step_rel (eqon rf) (fun op => frame_op op = true) cx); auto.
  - intros s0 s' _. reflexivity.
  - intros evs _ s0 p. reflexivity.
  - intros _. apply (mok_of_frame _ _ nomint_tabs), begin_block_ok.
  - intros evs H. discriminate H.
  - intros op' m H E. eapply tx_rf; eassumption.
Qed.

Theorem step_osc_frame : forall cx s op, frame_op op = true -> Inv_osc s -> Inv_osc (fst (step cx s op)).
Proof. intros cx s op Hf. apply osc_frame, rf_rk, step_frame_rf, Hf. Qed.

(** * Renew, the covered handler that writes orders and shards *)
(* [okp Post r]: [deliver] keeps the state of [r] only when [r] is [Ok] (an error restores the state before,
   see [deliver_state]), so the clauses are asked of accepted outcomes only *)
Definition okp {A} (Post : State -> Prop) (r : out A) : Prop := match r with Ok _ s' => Post s' | _ => True end.

Lemma okp_bind {A B} Post (m : M A) (k : A -> M B) s :
  match m s with Ok a s1 => okp Post (k a s1) | _ => True end -> okp Post (bind m k s).
Proof. unfold bind. destruct (m s); cbn; auto. Qed.

Lemma okp_weaken {A} (P Q : State -> Prop) (r : out A) : (forall s, P s -> Q s) -> okp P r -> okp Q r.
Proof. intros H. destruct r; cbn; auto. Qed.

Lemma okp_keep {T A B} (f : State -> T) Post (m : M A) (k : A -> M B) s :
  mok (eqon f) true m -> (forall a s1, f s1 = f s -> okp Post (k a s1)) -> okp Post (bind m k s).
Proof. intros Hm Hk. apply okp_bind. specialize (Hm s). destruct (m s); auto. Qed.

Lemma okp_try_keep {T A B} (f : State -> T) Post (m : M A) (k : option A -> M B) s :
  mok (eqon f) true m -> (forall r s1, f s1 = f s -> okp Post (k r s1)) -> okp Post (bind (try_ m) k s).
Proof. intros Hm. apply okp_keep. apply mok_try, Hm. Qed.

Lemma deliver_okp (Inv : State -> Prop) (m : M unit) s :
  Inv s -> (forall p, Inv (with_pg s p)) -> okp Inv (m s) -> Inv (deliver m s).1.1.
Proof. intros H Hp Hm. rewrite deliver_state. destruct (m s); auto. Qed.

Lemma osc_with_pg s p : Inv_osc s -> Inv_osc (with_pg s p).
Proof. apply osc_frame. reflexivity. Qed.

(* a renewal order gets an unused identifier when the stored ones are below the counter *)
Definition ordfresh (s : State) : Prop := forall id, order_count s <= id -> orders s !! id = None.
(* the invariant of the loop of [sao_renew] over the data identifiers: [n] is the number of renewal orders
   still to be created, and the order counter stays that far below 2^64 ([u64] does not wrap) *)
Definition Iren (n : Z) (s : State) : Prop :=
  Inv_osc s /\ ordfresh s /\ 0 <= order_count s /\ order_count s + n < two64.

Definition rko (s : State) := (rk s, order_count s).
Lemma rf_rko s s' : rf s' = rf s -> rko s' = rko s.
Proof. intros E. unfold rko. rewrite (rf_rk _ _ E). injection E; intros; congruence. Qed.

Lemma Iren_frame n s s' : rko s' = rko s -> Iren n s -> Iren n s'.
Proof.
  intros E (H1 & H2 & H3 & H4). split; [apply (osc_frame s); [exact (f_equal fst E)|exact H1]|].
  unfold rko, rk in E. injection E as Eo _ _ Ec. unfold ordfresh. rewrite Eo, Ec. auto.
Qed.

Lemma renew_order_spec o s :
  match renew_order o s with
  | Ok nid s1 => nid = order_count s /\ orders s1 = <[nid := o]> (orders s) /\ order_count s1 = u64 (nid + 1) /\
                 shards s1 = shards s /\ expshards s1 = expshards s
  | Err _ s1 => rf s1 = rf s
  | _ => True end.
Proof.
  unfold renew_order, bind, get. destruct (pay_addr s (o_owner o)) as [payer|]; [|cbn; reflexivity].
  pose proof (send_strict_rf payer (macc MARKET) (o_amount o) s) as H.
  destruct (send_strict payer (macc MARKET) (o_amount o) s) as [u s1|e s1|e|]; [|exact H|exact I|exact I].
  unfold eqon in H. injection H as H1 H2 H3 H4 H5.
  unfold append_order, bind, get, modify, ret. cbn. rewrite H1, H2, H3, H5. auto.
Qed.

Lemma osc_append_order s s1 nid no o oid :
  Inv_osc s -> orders s !! nid = None -> orders s !! oid = Some o -> o_shards no = o_shards o ->
  orders s1 = <[nid := no]> (orders s) -> shards s1 = shards s -> expshards s1 = expshards s -> Inv_osc s1.
Proof.
  intros (H1 & H2 & H3) Hn Ho Esh E1 E2 E3. unfold Inv_osc, Inv_order_shards, Inv_shard_order, Inv_completed_scheduled.
  rewrite E1, E2, E3. split; [|split].
  - intros k x Hx. apply lookup_insert_Some in Hx. destruct Hx as [[<- <-]|[_ Hx]]; [|apply (H1 k x Hx)].
    rewrite Esh. apply (H1 oid o Ho).
  - intros id sh Hs. destruct (H2 id sh Hs) as (x & Hx & Hin). exists x. split; [|exact Hin].
    rewrite lookup_insert_ne; [exact Hx|]. intros Eq. rewrite <- Eq in Hx. congruence.
  - exact H3.
Qed.

(* [returns_rf k4 m]: for the pledge top-up inside the loop of [renew_one]; the shard it returns is written back,
   which keeps [rk] because its four fields are [k4] *)
Definition returns_rf (k4 : Z * Z * Z * Z) (m : M Shard) : Prop :=
  forall s, match m s with
            | Ok sh1 s' => rf s' = rf s /\ key4 sh1 = k4
            | Err _ s' => rf s' = rf s
            | _ => True end.
Lemma returns_rf_ret k sh : key4 sh = k -> returns_rf k (ret sh).
Proof. intros E s. cbn. auto. Qed.
Lemma returns_rf_bind {A} k (m : M A) (f : A -> M Shard) : mok (eqon rf) true m -> (forall a, returns_rf k (f a)) -> returns_rf k (bind m f).
Proof.
  intros Hm Hf s. unfold bind. specialize (Hm s). destruct (m s) as [a s1|e s1|e|]; auto.
  specialize (Hf a s1). unfold eqon in Hm. destruct (f a s1) as [m' s2|e s2|e|]; auto.
  - destruct Hf as [Hf1 Hf2]. split; [congruence|exact Hf2].
  - congruence.
Qed.

Lemma key4_insert_same (ss : gmap Z Shard) id sh :
  (key4 <$> ss) !! id = Some (key4 sh) -> key4 <$> <[id := sh]> ss = key4 <$> ss.
Proof. intros H. rewrite fmap_insert. apply insert_id, H. Qed.

Section Renew.
  Context (cx : Ctx).
  Hint Resolve send_strict_rf send_lenient_rf coin_sub_rf : mok.

  Lemma renew_one_osc m sd d n s : 0 <= n -> Iren (n + 1) s -> okp (Iren n) (renew_one cx m sd d s).
  Proof.
    intros Hn HI.
    assert (Hweak : Iren n s) by (unfold Iren in *; intuition lia).
    unfold renew_one. apply okp_bind. cbn [get].
    destruct (metas s !! d) as [meta|]; [|exact Hweak].
    destruct (negb (String.eqb _ _)); [exact Hweak|].
    destruct (negb (m_status meta =? MetaComplete)); [exact Hweak|].
    destruct (orders s !! m_order meta) as [o|] eqn:Eo; [|exact Hweak].
    match goal with |- context [mapM ?f (o_shards o)] => destruct (mapM f (o_shards o)) as [shs|] eqn:Eshs end; [|exact Hweak].
    destruct (negb (o_status o =? OrderCompleted)); [exact Hweak|].
    destruct (_ <? cx_height cx); [exact Hweak|].
    cbv zeta.
    destruct (dec_mul_int (dec_mul_int (dec_mul_int PRICE (i64 (o_replica o))) (i64 (o_size o))) (i64 (rn_duration m)) <? 0); [exact I|].
    apply okp_bind.
    match goal with |- context [try_ (renew_order ?no0)] => set (no := no0) end.
    pose proof (renew_order_spec no s) as Hro. unfold try_ at 1.
    destruct (renew_order no s) as [nid s1|e s1|e|]; [|eapply Iren_frame; [apply rf_rko, Hro|exact Hweak]|exact I|exact I].
    destruct Hro as (Hnid & Ho1 & Hc1 & Hs1 & He1).
    destruct HI as (Hosc & Hfresh & Hc0 & Hbud).
    assert (Hc1' : order_count s1 = order_count s + 1) by (rewrite Hc1, Hnid; apply u64_id; lia).
    assert (HI1 : Iren n s1).
    { split; [|split; [|lia]].
      - eapply (osc_append_order s s1 nid no o (m_order meta)); try eassumption; [|reflexivity].
        apply Hfresh. lia.
      - intros id Hid. rewrite Ho1. rewrite lookup_insert_ne by lia. apply Hfresh. lia. }
    (* the loop keeps [rko], so the agreement of the snapshot with the table is stated about [s1] once *)
    assert (Hsnap : Forall (fun x : Z * Shard => (key4 <$> shards s1) !! x.1 = Some (key4 x.2)) shs).
    { apply mapM_Forall2 in Eshs. rewrite Hs1. clear -Eshs.
      induction Eshs as [|x y l r Hxy _ IH]; constructor; [|exact IH].
      destruct (shards s !! x) as [sh|] eqn:Ex; [|discriminate Hxy]. destruct (_ || _); [|discriminate Hxy].
      injection Hxy as <-. cbn. rewrite lookup_fmap, Ex. reflexivity. }
    assert (Hop : o_op no = 3) by reflexivity.
    clearbody no. clear Eshs.
    apply okp_bind.
    match goal with |- context [?F0 shs 0 s1] => set (F := F0) end.
    assert (Hloop : forall l acc t,
                Forall (fun x : Z * Shard => (key4 <$> shards s1) !! x.1 = Some (key4 x.2)) l -> rko t = rko s1 ->
                match F l acc t with Ok _ t' | Err _ t' => rko t' = rko s1 | _ => True end).
    { intros l. induction l as [|[id sh] l IH]; intros acc t Hl Ht; [exact Ht|].
      unfold F at 1. fix_unfold. fold F.
      inversion Hl as [|? ? Hk Hl']; subst. cbn [fst snd] in Hk.
      unfold bind at 1.
      destruct (sh_status sh =? ShardMigrating); [apply IH; assumption|].
      match goal with |- context [if ?b then panic _ else _] => destruct b end; [exact I|].
      unfold bind at 1.
      match goal with |- context [match ?inner t with _ => _ end] =>
        assert (Hin : returns_rf (key4 sh) inner) end.
      { destruct (sh_pledge sh <? _); [|apply returns_rf_ret; reflexivity].
        repeat (apply returns_rf_bind; [solve [mok_tac]|intros ?]). apply returns_rf_ret. reflexivity. }
      match goal with |- context [match ?inner t with _ => _ end] =>
        specialize (Hin t); destruct (inner t) as [sh1 t1|e t1|e|] end;
        [|rewrite (rf_rko _ _ Hin); exact Ht|exact I|exact I].
      destruct Hin as [Hrf Hk1]. apply rf_rko in Hrf. rewrite Ht in Hrf.
      cbn [bind modify ret]. apply IH; [exact Hl'|]. rewrite <- Hrf.
      unfold rko, rk in *. injection Hrf as _ Hr _ _. cbn. rewrite key4_insert_same; [reflexivity|]. rewrite Hr, Hk, <- Hk1. reflexivity. }
    pose proof (Hloop shs 0 s1 Hsnap eq_refl) as Hl2. destruct (F shs 0 s1) as [ne s2|e s2|e|]; try exact I.
    apply (okp_keep rf); [apply extend_meta_duration_rf|intros _ s3 E3].
    apply (okp_try_keep rf); [apply update_meta_rf; rewrite Hop; discriminate|intros r s4 E4].
    cbn [ret okp]. eapply Iren_frame; [|exact HI1].
    rewrite (rf_rko _ _ E4), (rf_rko _ _ E3). exact Hl2.
  Qed.

  Lemma forM_renew_osc m sd l : forall n s, 0 <= n -> Iren (n + Z.of_nat (length l)) s ->
    okp (Iren n) (forM l (renew_one cx m sd) s).
  Proof.
    induction l as [|d l IH]; intros n s Hn HI; cbn [forM length].
    - cbn. cbn [length] in HI. replace (n + Z.of_nat 0) with n in HI by lia. exact HI.
    - apply okp_bind.
      pose proof (renew_one_osc m sd d (n + Z.of_nat (length l)) s ltac:(lia)) as H1.
      replace (n + Z.of_nat (length l) + 1) with (n + Z.of_nat (S (length l))) in H1 by lia.
      specialize (H1 HI). destruct (renew_one cx m sd d s) as [u s1|e s1|e|]; try exact I.
      apply IH; [exact Hn|exact H1].
  Qed.

  Lemma sao_renew_osc m s : Iren (Z.of_nat (length (rn_data m))) s -> okp (Iren 0) (sao_renew cx m s).
  Proof.
    intros HI. unfold sao_renew. apply okp_bind. cbn [get].
    destruct (verify_sig s (rn_owner m) (rn_sig m)) as [sd|]; [|exact I].
    destruct (negb (acts_for s _ _)); [exact I|].
    destruct (rn_duration m <? 3600); [exact I|]. destruct (MAX_RENEW <? rn_duration m); [exact I|].
    destruct (pool s); [|exact I]. apply forM_renew_osc; [lia|exact HI].
  Qed.
End Renew.

(* Renew keeps the three clauses -- also when it copies a shard under migration (defect D23): the
   renewal order it creates lists existing shards, each once. What D23 damages is a different,
   stronger property ([migrating_private], Model/Inv.v); the clauses break at the NEXT operation.
   The bound on the number of data identifiers is [sizes_small] of a Renew. *)
Theorem step_osc_renew : forall cx s m,
  Inv_osc s -> Inv_ids s -> counts_small s -> Z.of_nat (length (rn_data m)) < two31 ->
  Inv_osc (fst (step cx s (ORenew m))).
Proof.
  intros cx s m Hosc [Hids _] [[Hc1 Hc2] _] Hlen. rewrite step_state. cbn [tx_of].
  apply (deliver_okp Inv_osc); [exact Hosc|intros p; apply osc_with_pg, Hosc|].
  eapply okp_weaken; [|apply sao_renew_osc].
  - intros s' (H & _). exact H.
  - split; [exact Hosc|]. split; [|unfold two63, two64, two31 in *; lia].
    intros id Hid. destruct (orders s !! id) as [o|] eqn:E; [|reflexivity]. apply Hids in E. lia.
Qed.
Print Assumptions step_osc_renew.

(** * The combined theorem on the covered operations *)
Definition covered (op : Op) : bool :=
  frame_op op || match op with ORenew _ => true | _ => false end.

Definition ref_hyp (cx : Ctx) (s : State) (op : Op) : Prop :=
  match op with ORenew _ => counts_small s /\ sizes_small cx s op | _ => True end.

Theorem step_osc_partial : forall cx s op,
  covered op = true -> Inv_osc s -> Inv_ids s -> ref_hyp cx s op -> Inv_osc (fst (step cx s op)).
Proof.
  intros cx s op Hc Hosc Hids Hh. destruct (frame_op op) eqn:Hf; [apply step_osc_frame; assumption|].
  destruct op; try discriminate Hc; try discriminate Hf. destruct Hh as [Hcs Hsz]. cbn in Hsz.
  apply step_osc_renew; assumption.
Qed.

Theorem step_ref_partial : forall cx s op,
  covered op = true -> Inv_ref s -> Inv_ids s -> ref_hyp cx s op -> Inv_ref (fst (step cx s op)).
Proof.
  intros cx s op Hc Href Hids Hh. apply Inv_ref_split in Href. destruct Href as [Ha Ho].
  apply Inv_ref_split. split; [apply step_alias, Ha|apply step_osc_partial; assumption].
Qed.
Print Assumptions step_ref_partial.

Theorem step_order_shards_partial : forall cx s op,
  covered op = true -> Inv_ref s -> Inv_ids s -> ref_hyp cx s op -> Inv_order_shards (fst (step cx s op)).
Proof. intros cx s op H1 H2 H3 H4. apply (step_ref_partial cx s op H1 H2 H3 H4). Qed.
Theorem step_shard_order_partial : forall cx s op,
  covered op = true -> Inv_ref s -> Inv_ids s -> ref_hyp cx s op -> Inv_shard_order (fst (step cx s op)).
Proof. intros cx s op H1 H2 H3 H4. apply (step_ref_partial cx s op H1 H2 H3 H4). Qed.
Theorem step_completed_scheduled_partial : forall cx s op,
  covered op = true -> Inv_ref s -> Inv_ids s -> ref_hyp cx s op -> Inv_completed_scheduled (fst (step cx s op)).
Proof. intros cx s op H1 H2 H3 H4. apply (step_ref_partial cx s op H1 H2 H3 H4). Qed.

(* the size bounds are those under which identifiers stay below their counters ([step_ids_partial]) *)
Fixpoint ok_along (tr : list (Ctx * Op)) (s : State) : Prop :=
  match tr with
  | [] => True
  | (cx, op) :: tr' =>
      covered op = true /\ counts_small s /\ sizes_small cx s op /\ ok_along tr' (fst (step cx s op))
  end.

Theorem run_ref_partial : forall tr s,
  Inv_ref s -> Inv_ids s -> ok_along tr s -> Inv_ref (run tr s) /\ Inv_ids (run tr s).
Proof.
  intros tr s Href Hids Hok.
  apply (run_preserves (fun t => Inv_ref t /\ Inv_ids t) ok_along); [|exact Hok|split; assumption].
  intros cx op tr' t (Hc & Hcs & Hsz & Hok') (Hr & Hi). split; [split|exact Hok'].
  - apply step_ref_partial; try assumption. destruct op; try exact I. split; assumption.
  - apply step_ids_partial; try assumption. destruct op; try exact I. discriminate Hc.
Qed.
Print Assumptions run_ref_partial.

(** ** the monitors decide the clauses (used for the examples and witnesses) *)
Lemma all_z_spec {A} (m : gmap Z A) f : all_z m f = true -> forall k v, m !! k = Some v -> f k v = true.
Proof.
  unfold all_z, zitems. rewrite forallb_forall. intros H k v Hkv. apply (H (k, v)).
  apply elem_of_list_In, elem_of_map_to_list, Hkv.
Qed.
Lemma all_s_spec {A} (m : gmap string A) f : all_s m f = true -> forall k v, m !! k = Some v -> f k v = true.
Proof.
  unfold all_s, sitems. rewrite forallb_forall. intros H k v Hkv. apply (H (k, v)).
  apply elem_of_list_In, elem_of_map_to_list, Hkv.
Qed.
Lemma inZ_In x l : inZ x l = true -> In x l.
Proof. unfold inZ. rewrite existsb_exists. intros (y & Hy & E). apply Z.eqb_eq in E. subst. exact Hy. Qed.

Definition mon_ref (s : State) : bool :=
  mon_model_alias s && mon_order_shards_exist s && mon_order_shards_nodup s && mon_shard_has_order s && mon_completed_scheduled s.

Lemma mon_ref_sound s : mon_ref s = true -> Inv_ref s.
Proof.
  unfold mon_ref. rewrite !andb_true_iff. intros ((((Ha & He) & Hn) & Hs) & Hc).
  split; [|split; [|split]].
  - unfold mon_model_alias in Ha. apply andb_true_iff in Ha. destruct Ha as [Ha1 Ha2]. split.
    + intros d m Hm. pose proof (all_s_spec _ _ Ha1 d m Hm) as H. cbn in H.
      destruct (models s !! meta_key m) as [d'|]; [|discriminate H]. apply String.eqb_eq in H. congruence.
    + intros k d Hk. pose proof (all_s_spec _ _ Ha2 k d Hk) as H. cbn in H.
      destruct (metas s !! d) as [m|]; [|discriminate H]. apply String.eqb_eq in H. exists m. auto.
  - intros oid o Ho. split.
    + pose proof (all_z_spec _ _ Hn oid o Ho) as H. cbn in H. apply bool_decide_eq_true in H. exact H.
    + pose proof (all_z_spec _ _ He oid o Ho) as H. cbn in H. rewrite forallb_forall in H.
      intros id Hid. specialize (H id Hid). apply bool_decide_eq_true in H. exact H.
  - intros id sh Hsh. pose proof (all_z_spec _ _ Hs id sh Hsh) as H. cbn in H.
    destruct (orders s !! sh_order sh) as [o|]; [|discriminate H]. exists o. split; [reflexivity|apply inZ_In, H].
  - intros id sh Hsh Hst. pose proof (all_z_spec _ _ Hc id sh Hsh) as H. cbn in H.
    rewrite Hst in H. cbn in H. apply inZ_In, H.
Qed.

Definition mon_ids (s : State) : bool :=
  all_z (orders s) (fun id _ => (0 <=? id) && (id <? order_count s)) &&
  all_z (shards s) (fun id _ => (0 <=? id) && (id <? shard_count s)).
Lemma mon_ids_sound s : mon_ids s = true -> Inv_ids s.
Proof.
  unfold mon_ids. rewrite andb_true_iff. intros [H1 H2]. split; intros id x Hx.
  - pose proof (all_z_spec _ _ H1 id x Hx) as H. cbn in H. apply andb_true_iff in H. lia.
  - pose proof (all_z_spec _ _ H2 id x Hx) as H. cbn in H. apply andb_true_iff in H. lia.
Qed.

(** ** a concrete chain: one gateway G, two storage nodes S and T, one owner *)
Module W.
  Definition cxh (h : Z) : Ctx := {| cx_height := h; cx_chain := "c"; cx_time := 0; cx_seed := 7 |}.
  Definition data : string := "0123456789abcdef0123456789abcdef0123".
  Definition dids : DidState := mkDid ∅ ∅ ∅ ∅ ∅ ∅ ∅ {[ "did:key:K1" := "P1" ]} ∅ ∅.
  Definition s0 : State :=
    mkState dids
            (<["G" := mkNode "" 10000 3 5 [] 0 ""]> (<["S" := mkNode "" 10000 13 5 [] 0 ""]> (<["T" := mkNode "" 10000 13 5 [] 0 ""]> ∅)))
            (<[ "S" := mkPledge 10 0 0 0 10000000 0 ]> (<[ "T" := mkPledge 10 0 0 0 10000000 0 ]> ∅))
            ∅ (Some (mkPool 20 0 0 0 0 0 20000000 0)) None ∅ ∅ ∅ (mkNParams 0 0 0 1 1 0 "" 0 0 0 1000)
            ∅ 1 ∅ 1 ∅ ∅ ∅ ∅ ∅ ∅
            (<["P1" := 100000]> (<["S" := 1000]> (<["T" := 1000]> ∅))) 102000 ∅ ∅ 0.
  Definition sig : SigO := {| so_owner := Some ("key", "K1"); so_kid := Some ("key", "K1", ""); so_keys := ["K1"] |}.
  Definition store : StoreMsg :=
    {| st_creator := "G"; st_provider := "G"; st_owner := "did:key:K1"; st_pprovider := "G"; st_group := "";
       st_duration := 3600; st_replica := 1; st_timeout := 100; st_alias := "a"; st_data := data; st_commit := data;
       st_tags := []; st_cid := "cid"; st_rule := ""; st_ext := ""; st_size := 1000000; st_op := 1; st_ro := [];
       st_paydid := ""; st_sig := sig; st_cid_ok := true |}.
  Definition renew : RenewMsg :=
    {| rn_creator := "G"; rn_provider := "G"; rn_owner := "did:key:K1"; rn_duration := 4000; rn_timeout := 100;
       rn_data := [data]; rn_sig := sig |}.
  Definition stp (h : Z) (s : State) (op : Op) : State := fst (step (cxh h) s op).
  (* store (the shard goes to T), T completes *)
  Definition s1 := stp 5 s0 (OStore store).
  Definition s2 := stp 6 s1 (OComplete "T" "T" 1 "cid" 1000000 true).
  (* the D23 history: T starts a migration (new shard 2 for S, status migrating), the owner renews
     while it is pending, then S completes the migration *)
  Definition d3 := stp 7 s2 (OMigrate "T" "T" [data]).
  Definition d4 := stp 8 d3 (ORenew renew).
  Definition d5 := stp 9 d4 (OComplete "S" "S" 1 "cid" 1000000 true).
  (* the benign history: renew first, migrate afterwards, complete, the end of block 3606 *)
  Definition b3 := stp 7 s2 (ORenew renew).
  Definition b4 := stp 8 b3 (OMigrate "T" "T" [data]).
  Definition b5 := stp 9 b4 (OComplete "S" "S" 2 "cid" 1000000 true).
  Definition b6 := stp 3606 b5 (OEndBlock []).

End W.

Definition refs_b (s : State) : bool :=
  all_z (shards s) (fun _ sh => bool_decide (is_Some (orders s !! sh_order sh)) &&
                                forallb (fun ri => bool_decide (is_Some (orders s !! ri_order ri))) (sh_renew sh)).
Lemma refs_b_sound s : refs_b s = true -> shard_refs_ok s.
Proof.
  intros H sid sh Hs. pose proof (all_z_spec _ _ H sid sh Hs) as Hb. cbn beta in Hb.
  apply andb_prop in Hb as [H1 H2]. apply bool_decide_eq_true in H1. split; [exact H1|].
  intros ri Hri. rewrite forallb_forall in H2. specialize (H2 ri Hri). apply bool_decide_eq_true in H2. exact H2.
Qed.

Definition counts_b (s : State) : bool :=
  (0 <=? order_count s) && (order_count s <? two63) && (0 <=? shard_count s) && (shard_count s <? two63).
Lemma counts_b_sound s : counts_b s = true -> counts_small s.
Proof. unfold counts_b, counts_small. rewrite !andb_true_iff. lia. Qed.

(* Each example reads its closed states through one equation between small data and then generalises them:
   [injection] reduces both sides of an equation, and must not meet a closed state. *)
Definition ord_at (s : State) (id : Z) := (fun o => (o_op o, o_shards o)) <$> orders s !! id.
Definition shd_at (s : State) (id : Z) := (fun sh => (sh_status sh, sh_order sh)) <$> shards s !! id.
Lemma ord_at_Some s id op l :
  ord_at s id = Some (op, l) -> exists o, orders s !! id = Some o /\ o_op o = op /\ o_shards o = l.
Proof. intros H. apply fmap_Some in H as (o & Ho & E). injection E as -> ->. eauto. Qed.
Lemma shd_at_Some s id st oid :
  shd_at s id = Some (st, oid) -> exists sh, shards s !! id = Some sh /\ sh_status sh = st /\ sh_order sh = oid.
Proof. intros H. apply fmap_Some in H as (sh & Hs & E). injection E as -> ->. eauto. Qed.
Local Hint Resolve mon_ref_sound mon_ids_sound counts_b_sound refs_b_sound : core.

Example ref_nonvacuous :
  Inv_ref W.s2 /\ Inv_ids W.s2 /\ counts_small W.s2 /\
  (exists o sh m, orders W.s2 !! 1 = Some o /\ o_shards o = [1] /\ shards W.s2 !! 1 = Some sh /\
     sh_status sh = ShardCompleted /\ expshards W.s2 !! 3606 = Some [1] /\
     metas W.s2 !! W.data = Some m /\ models W.s2 !! meta_key m = Some W.data) /\
  Inv_ref W.b3 /\ (exists o, orders W.b3 !! 2 = Some o /\ o_op o = 3 /\ o_shards o = [1]).
Proof.
  assert (V : (mon_ref W.s2, mon_ids W.s2, counts_b W.s2, mon_ref W.b3, ord_at W.s2 1, shd_at W.s2 1,
               expshards W.s2 !! 3606, (fun m => models W.s2 !! meta_key m) <$> metas W.s2 !! W.data, ord_at W.b3 2)
              = (true, true, true, true, Some (1, [1]), Some (ShardCompleted, 1), Some [1], Some (Some W.data), Some (3, [1])))
    by (vm_compute; reflexivity).
  revert V. generalize W.s2 W.b3. intros s b V. injection V as H1 H2 H3 H4 Ho Hsh He Hm Hob.
  apply ord_at_Some in Ho as (o & Ho & _ & Eo), Hob as (o' & Hob). apply shd_at_Some in Hsh as (sh & Hsh & Esh & _).
  apply fmap_Some in Hm as (m & Hm & Em).
  split; [auto|]. split; [auto|]. split; [auto|]. split; [exists o, sh, m; auto 10|eauto].
Qed.

Definition ex_run : list (Ctx * Op) :=
  [ (W.cxh 7, ORenew W.renew); (W.cxh 7, OSend "P1" "S" 5);
    (W.cxh 8, OUpdatePermission "G" "G" "did:key:K1" W.data ["did:key:K2"] [] W.sig true); (W.cxh 9, OBeginBlock) ].
Example ok_along_nonvacuous :
  ok_along ex_run W.s2 /\ Inv_ref (run ex_run W.s2) /\
  (exists o, orders (run ex_run W.s2) !! 2 = Some o /\ o_op o = 3) /\
  (exists m, metas (run ex_run W.s2) !! W.data = Some m /\ m_ro m = ["did:key:K2"]).
Proof.
  refine ((fun H : _ /\ _ => conj (proj1 H) (conj (_ (proj1 H)) (proj2 H))) _).
  { intros Hok. destruct ref_nonvacuous as (H1 & H2 & _). apply run_ref_partial; assumption. }
  unfold run. cbn [ok_along ex_run fold_left fst snd].
  set (e1 := fst (step _ W.s2 _)). set (e2 := fst (step _ e1 _)). set (e3 := fst (step _ e2 _)). set (e4 := fst (step _ e3 _)).
  assert (V : (counts_b W.s2, counts_b e1, counts_b e2, counts_b e3, o_op <$> orders e4 !! 2, m_ro <$> metas e4 !! W.data)
              = (true, true, true, true, Some 3, Some ["did:key:K2"]))
    by (vm_compute; reflexivity).
  clearbody e1 e2 e3 e4. revert V. generalize W.s2. intros s V. injection V as H0 H1 H2 H3 Ho Hm.
  apply fmap_Some in Ho as (o & Ho & Eo), Hm as (m & Hm & Em).
  split; [|split; [exists o|exists m]; auto].
  repeat (split; [reflexivity|split; [auto|split; [first [exact I|reflexivity]|]]]). exact I.
Qed.

(** ** refutations *)
(* the D23 history: in [W.d4] the renewal order 2 lists shard 2, under migration and owned by order 1; in [W.d5]
   it still lists shard 1, which the completion of the migration deleted *)
Lemma d23_states :
  Inv_ref W.d3 /\ (Inv_ref W.d4 /\ Inv_ids W.d4 /\ counts_small W.d4 /\ shard_refs_ok W.d4) /\
  (exists o sh, orders W.d4 !! 2 = Some o /\ o_op o = 3 /\ In 2 (o_shards o) /\ shards W.d4 !! 2 = Some sh /\
     sh_status sh = ShardMigrating /\ sh_order sh = 1) /\
  ~ Inv_order_shards W.d5.
Proof.
  assert (V : (mon_ref W.d3, mon_ref W.d4, mon_ids W.d4, counts_b W.d4, refs_b W.d4, ord_at W.d4 2, shd_at W.d4 2,
               ord_at W.d5 2, shards W.d5 !! 1)
              = (true, true, true, true, true, Some (3, [1; 2]), Some (ShardMigrating, 1), Some (3, [1; 2]), None))
    by (vm_compute; reflexivity).
  revert V. generalize W.d3 W.d4 W.d5. intros d3 d4 d5 V. injection V as H1 H2 H3 H4 H5 Ho Hsh Ho5 Hn5.
  apply ord_at_Some in Ho as (o & Ho & Eo1 & Eo2), Ho5 as (o5 & Ho5 & _ & Eo5). apply shd_at_Some in Hsh as (sh & Hsh).
  split; [auto|]. split; [auto 6|]. split; [exists o, sh; rewrite Eo2; cbn; auto 10|].
  intros H. destruct (H 2 o5 Ho5) as [_ He]. destruct (He 1) as [x Hx]; [rewrite Eo5; left; reflexivity|]. congruence.
Qed.

(* The full statement [forall cx s op, Inv_ref s -> Inv_ids s -> Inv_ref (fst (step cx s op))] is false.
   D23: from a state that satisfies all four clauses (reached by store, complete, migrate, renew),
   the completion of the migration deletes the replaced shard 1 and takes it out of the shard list of
   order 1 only; the renewal order 2, which copied the list while shard 2 was migrating, keeps naming
   the deleted shard. *)
Theorem step_ref_refuted :
  exists cx s op, Inv_ref s /\ Inv_ids s /\ counts_small s /\ sizes_small cx s op /\ shard_refs_ok s /\
    ~ Inv_order_shards (fst (step cx s op)).
Proof.
  exists (W.cxh 9), W.d4, (OComplete "S" "S" 1 "cid" 1000000 true).
  destruct d23_states as (_ & (H1 & H2 & H3 & H4) & _ & H5).
  exact (conj H1 (conj H2 (conj H3 (conj I (conj H4 H5))))).
Qed.
Print Assumptions step_ref_refuted.

(* the state before that completion is the one the Renew of D23 produced: it violates
   [no_renewal_of_migrating], and [step_ref_partial] applied to that Renew shows the four clauses
   survive it -- the damage is latent *)
Example d23_latent :
  Inv_ref W.d3 /\ Inv_ref W.d4 /\ ~ no_renewal_of_migrating W.d4 /\ ~ Inv_ref W.d5.
Proof.
  destruct d23_states as (H3 & (H4 & _) & (o & sh & Ho & Hop & Hin & Hsh & Hst & _) & H5).
  split; [exact H3|]. split; [exact H4|]. split; [|intros (_ & H & _); exact (H5 H)].
  intros H. exact (H 2 o Ho Hop 2 sh Hin Hsh Hst).
Qed.

(* [no_renewal_of_migrating] is not the dividing line: a migration started AFTER a renewal attaches
   the migrating shard to the renewal order (the newest order of the commit), so the predicate is
   false in a history where nothing goes wrong -- the four clauses hold before and after the
   completion and after the expiry that rotates the shard to the renewal order. What separates the
   two histories is whether a migrating shard is listed by an order other than its own. *)
Lemma mon_migrating_private_sound s : mon_migrating_private s = true -> migrating_private s.
Proof.
  intros Hm oid o id sh Ho Hin Hsh Hst. pose proof (all_z_spec _ _ Hm oid o Ho) as H. cbn in H.
  rewrite forallb_forall in H. specialize (H id Hin). rewrite Hsh, Hst in H. cbn in H. apply Z.eqb_eq in H. exact H.
Qed.

Example no_renewal_of_migrating_benign :
  Inv_ref W.b4 /\ ~ no_renewal_of_migrating W.b4 /\ migrating_private W.b4 /\ Inv_ref W.b5 /\ Inv_ref W.b6 /\
  ~ migrating_private W.d4.
Proof.
  destruct d23_states as (_ & _ & (o4 & sh4 & Ho4 & _ & Hin4 & Hsh4 & Hst4 & Hord4) & _).
  assert (V : (mon_ref W.b4, mon_migrating_private W.b4, mon_ref W.b5, mon_ref W.b6, ord_at W.b4 2, shd_at W.b4 2)
              = (true, true, true, true, Some (3, [1; 2]), Some (ShardMigrating, 2)))
    by (vm_compute; reflexivity).
  revert V. generalize W.b4 W.b5 W.b6. intros b4 b5 b6 V. injection V as H1 H2 H3 H4 Ho Hsh.
  apply ord_at_Some in Ho as (o & Ho & Eo1 & Eo2). apply shd_at_Some in Hsh as (sh & Hsh & Est & _).
  split; [auto|]. split.
  { intros H. refine (H 2 o Ho Eo1 2 sh _ Hsh Est). rewrite Eo2. cbn. auto. }
  split; [exact (mon_migrating_private_sound _ H2)|]. split; [auto|]. split; [auto|].
  intros H. pose proof (H 2 o4 2 sh4 Ho4 Hin4 Hsh4 Hst4) as E. lia.
Qed.

Print Assumptions ref_nonvacuous.
Print Assumptions ok_along_nonvacuous.
Print Assumptions d23_latent.
Print Assumptions no_renewal_of_migrating_benign.
