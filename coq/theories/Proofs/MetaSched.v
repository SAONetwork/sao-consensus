(* C11 / C05, history level: every data model is scheduled for removal at exactly the end of its
   lifetime (created + duration), in every reachable state.

   The walk over the functions, the handlers and the step is generic in the invariant ([sched_logic]);
   Proofs/DataSched.v uses it a second time. *)
From SaoVerif Require Import Base.Prelude Base.Ints Base.Dec Model.Did Model.Types Model.Monad Model.Bank Model.Select
     Model.Node Model.Storage Model.Sao Model.Hooks Model.App Model.Spec Model.Inv Model.Monitors Proofs.Frame Proofs.RefInt
     Proofs.Authz Proofs.Hoare Proofs.History.
From RecordUpdate Require Import RecordUpdate.
Import RecordSetNotations.

(** * arithmetic of expiry heights *)
Lemma u64_idem x : u64 (u64 x) = u64 x.
Proof. apply u64_id, u64_range. Qed.
Lemma u64_add_sub c e : u64 (c + u64 (e - c)) = u64 e.
Proof. unfold u64, two64. rewrite Zplus_mod_idemp_r. f_equal. lia. Qed.

(** * the invariant *)
Definition expiry (m : Meta) : Z := u64 (m_created m + m_duration m).
Definition listed (s : State) (h : Z) (d : string) : Prop := In d (default [] (expdata s !! h)).
Definition Inv_msched (s : State) : Prop := forall d m, metas s !! d = Some m -> listed s (expiry m) d.

Definition mx (s : State) := (metas s, expdata s).
Definition Rinv (Inv : State -> Prop) (s s' : State) : Prop := Inv s -> Inv s'.
Global Instance Rinv_po Inv : PreOrder (Rinv Inv).
Proof. split; [intros s H; exact H|intros a b c H1 H2 H; exact (H2 (H1 H))]. Qed.

(* [Rinv Inv_msched]: the lemmas stated with [Rms] below are the generic ones at [ms_logic], by this conversion *)
Definition Rms (s s' : State) : Prop := Inv_msched s -> Inv_msched s'.
Global Instance Rms_po : PreOrder Rms.
Proof. exact (Rinv_po Inv_msched). Qed.

(* a domain assumption, the same bound as [counts_small] *)
Definition height_ok (cx : Ctx) : Prop := 0 <= cx_height cx < two63.

Lemma fold_left_inv {X Y} (P : X -> Prop) (f : X -> Y -> X) (l : list Y) :
  (forall x y, P x -> P (f x y)) -> forall x, P x -> P (fold_left f l x).
Proof. intros Hf. induction l as [|y l IH]; intros x Hx; [exact Hx|]. apply IH, Hf, Hx. Qed.

Lemma shard_end_all_u64 sh : u64 (shard_end_all sh) = shard_end_all sh.
Proof. unfold shard_end_all. apply (fold_left_inv (fun x => u64 x = x)); intros; apply u64_idem. Qed.

Lemma reset_expired_height_u64 s ords : u64 (reset_expired_height s ords) = reset_expired_height s ords.
Proof.
  unfold reset_expired_height. apply (fold_left_inv (fun x => u64 x = x)); [|reflexivity].
  intros acc oid Ha. destruct (orders s !! oid) as [o|]; [|exact Ha].
  apply (fold_left_inv (fun x => u64 x = x)); [|exact Ha].
  intros a sid Ha'. destruct (shards s !! sid) as [sh|]; [|exact Ha']. destruct (_ =? _); [|exact Ha'].
  destruct (Z.max_spec a (shard_end_all sh)) as [[_ ->]|[_ ->]]; [apply shard_end_all_u64|exact Ha'].
Qed.

(** * functions that touch neither the metadata table nor the data-expiry schedule *)
Lemma mv_mx {A} (m : M A) : keeps model_view m -> keeps mx m.
Proof. intros H s. specialize (H s). unfold model_view, mx in *. destruct (m s); auto; congruence. Qed.

Create HintDb mxdb.
Ltac kx_leaf := first [ solve [eauto 3 with mxdb nocore] | solve [apply mv_mx; eauto 3 with mv nocore]
                      | solve [apply keeps_modify; intros; reflexivity] ].
Ltac kx := kwalk kx_leaf.

Lemma mx_worker_release cx o sh : keeps mx (worker_release cx o sh).
Proof. unfold worker_release. kx. Qed.
Global Hint Resolve mx_worker_release : mxdb.
Lemma mx_worker_append cx o sh : keeps mx (worker_append cx o sh).
Proof. unfold worker_append. kx. Qed.
Global Hint Resolve mx_worker_append : mxdb.
Lemma mx_market_deposit o : keeps mx (market_deposit o).
Proof. unfold market_deposit. kx. Qed.
Global Hint Resolve mx_market_deposit : mxdb.
Lemma mx_market_withdraw cx oid o : keeps mx (market_withdraw cx oid o).
Proof.
  unfold market_withdraw. destruct (_ =? _); [kx|]. cbv zeta.
  match goal with |- keeps _ (_ _ ?b) => generalize b end.
  generalize (o_shards o). induction l as [|id rest IH]; intros refund; [kx|].
  kx; apply IH.
Qed.
Global Hint Resolve mx_market_withdraw : mxdb.
Lemma mx_send_to_did_balances md d n : keeps mx (send_to_did_balances md d n).
Proof. unfold send_to_did_balances. kx. Qed.
Global Hint Resolve mx_send_to_did_balances : mxdb.
Lemma mx_order_terminate oid r : keeps mx (order_terminate oid r).
Proof. unfold order_terminate. kx. Qed.
Global Hint Resolve mx_order_terminate : mxdb.
Lemma mx_model_terminate_order cx oid o : keeps mx (model_terminate_order cx oid o).
Proof. unfold model_terminate_order. kx. Qed.
Global Hint Resolve mx_model_terminate_order : mxdb.
Lemma mx_remove_shards ids : keeps mx (remove_shards ids).
Proof. unfold remove_shards. kx. Qed.
Global Hint Resolve mx_remove_shards : mxdb.
Lemma mx_force_push_loop cx lc : forall ro acc, keeps mx (force_push_loop cx ro lc acc).
Proof. induction ro as [|oid rest IH]; intros acc; simpl; kx. Qed.
Global Hint Resolve mx_force_push_loop : mxdb.
Lemma mx_refund_order oid : keeps mx (refund_order oid).
Proof. unfold refund_order. kx. Qed.
Global Hint Resolve mx_refund_order : mxdb.
Lemma mx_complete_migration cx oid o sid sh : keeps mx (complete_migration cx oid o sid sh).
Proof. unfold complete_migration. kx. Qed.
Global Hint Resolve mx_complete_migration : mxdb.
Lemma mx_renew_order o : keeps mx (renew_order o).
Proof. unfold renew_order. kx. Qed.
Global Hint Resolve mx_renew_order : mxdb.

Definition vok {A} (V : A -> Prop) (m : M A) : Prop := forall s, match m s with Ok a _ => V a | _ => True end.
Lemma mok_bind_v {A B} (R : State -> State -> Prop) `{!PreOrder R} (V : A -> Prop) (m : M A) (k : A -> M B) :
  mok R true m -> vok V m -> (forall a, V a -> mok R true (k a)) -> mok R true (bind m k).
Proof.
  intros Hm Hv Hk s. unfold bind. specialize (Hm s). specialize (Hv s). destruct (m s) as [a s1|e s1|e|]; auto.
  specialize (Hk a Hv s1). destruct (k a s1); auto; etransitivity; eauto.
Qed.

Lemma vok_bind {A B} (V : B -> Prop) (m : M A) (k : A -> M B) : (forall a, vok V (k a)) -> vok V (bind m k).
Proof. intros H s. unfold bind. destruct (m s) as [a s1|e s1|e|]; auto. apply H. Qed.
Lemma vok_ret {A} (V : A -> Prop) a : V a -> vok V (ret a).
Proof. intros H s. exact H. Qed.
Lemma vok_fail {A} (V : A -> Prop) e : vok V (@fail A e).
Proof. intros s. exact I. Qed.
Lemma vok_panic {A} (V : A -> Prop) e : vok V (@panic A e).
Proof. intros s. exact I. Qed.

(* Store: the new order carries the height and the duration the new model is created with *)
Lemma new_order_v cx o sps : vok (fun r => o_created (snd r) = cx_height cx /\ o_duration (snd r) = o_duration o) (new_order cx o sps).
Proof.
  intros s. destruct (new_order cx o sps s) as [[id o2] s'|e s'|e|] eqn:H; auto.
  cbn [snd]. rewrite (new_order_fields _ _ _ _ _ _ _ H). split; reflexivity.
Qed.

Create HintDb schdb discriminated.

Lemma mok_inv {T} (Inv : State -> Prop) (m : M T) :
  (forall b, Inv b -> ht (eq b) m (fun _ => Inv) Inv) -> mok (Rinv Inv) true m.
Proof.
  intros H s. destruct (m s) as [a s'|e s'|e|] eqn:E; auto; intros Hi; specialize (H s Hi s eq_refl); rewrite E in H; exact H.
Qed.

(* [Asrt b d w t] stands while the model [d] is rewritten: the table of [t] is that of [b]; everything but [d] is
   as [Inv] demands; [d] is scheduled at [w] and nowhere else. The table entry of [d] itself is not constrained. *)
Record sched_logic {Inv : State -> Prop} {Asrt : State -> string -> option Z -> State -> Prop} : Prop := {
  (* the model end blocker relies on this file's invariant to find the expiring models in its list *)
  sl_sched b : Inv b -> Inv_msched b;
  (* entering and leaving: [Inv] is the assertion about a model scheduled where its own lifetime ends, or absent
     and unscheduled *)
  sl_open b d : Inv b -> Asrt b d (expiry <$> metas b !! d) b;
  sl_close b d t : Asrt b d (expiry <$> metas b !! d) t -> Inv t;
  sl_keeps T b d w (m : M T) : keeps mx m -> ht (Asrt b d w) m (fun _ => Asrt b d w) (Asrt b d w);
  (* a write to the table entry of [d]: the assertion moves to the new table *)
  sl_table b d w t t' :
    Asrt b d w t -> (forall k, k <> d -> metas t' !! k = metas t !! k) -> expdata t' = expdata t -> Asrt t' d w t';
  (* [remove_data_expire] and [set_data_expire] never return an error, hence any [E] *)
  sl_remove b d h E : ht (Asrt b d (Some h)) (remove_data_expire d h) (fun _ => Asrt b d None) E;
  sl_set b d h E : ht (Asrt b d None) (set_data_expire d h) (fun _ => Asrt b d (Some h)) E;
  (* the model end blocker drops the list of a height at which no lifetime ends any more *)
  sl_drop h t :
    Inv t -> (forall d m, metas t !! d = Some m -> expiry m <> h) -> Inv (t <| expdata ::= delete h |>)
}.

Definition Oth (b : State) (d : string) (t : State) : Prop :=
  metas t = metas b /\ forall d' m', d' <> d -> metas b !! d' = Some m' -> listed t (expiry m') d'.

Lemma Oth_init b d : Inv_msched b -> Oth b d b.
Proof. intros Hi. split; [reflexivity|]. intros d' m' _ H. apply Hi, H. Qed.

(** ** the two schedule primitives *)
Lemma set_data_expire_listed data h t : forall t', set_data_expire data h t = Ok tt t' ->
  metas t' = metas t /\ listed t' h data /\ forall h' x, listed t h' x -> listed t' h' x.
Proof.
  intros t' H. unfold set_data_expire, modify in H. injection H as <-. unfold set; cbn. split; [reflexivity|].
  unfold listed; cbn. split.
  - rewrite lookup_insert. cbn. apply in_app_iff. right. left. reflexivity.
  - intros h' x Hx. destruct (decide (h' = h)) as [->|Hne].
    + rewrite lookup_insert. cbn. apply in_app_iff. left. exact Hx.
    + rewrite lookup_insert_ne by congruence. exact Hx.
Qed.

(* the slice machine of removeDataExpireBlock keeps every other entry, duplicates or not *)
Lemma rm_loop_keeps data x : x <> data -> forall n idx arr len arr' len',
  (len <= length arr)%nat ->
  rm_expire_loop n idx arr len data = Some (arr', len') ->
  In x (take len arr) -> In x (take len' arr').
Proof.
  intros Hx. induction n as [|n IH]; intros idx arr len arr' len' Hl H Hin; cbn [rm_expire_loop] in H.
  - injection H as <- <-. exact Hin.
  - destruct (arr !! idx) as [id|] eqn:Eid; [|injection H as <- <-; exact Hin].
    destruct (String.eqb id data) eqn:Eq.
    + destruct (Nat.ltb len (idx + 1)) eqn:El; [discriminate H|]. apply Nat.ltb_ge in El.
      apply String.eqb_eq in Eq. subst id.
      refine (IH _ _ _ _ _ _ H _).
      * rewrite !app_length, take_length, !drop_length, take_length. lia.
      * (* the live part loses only position idx *)
        assert (Ht : take (len - 1) (take idx arr ++ drop (idx + 1) (take len arr) ++ drop (len - 1) arr)
                     = take idx arr ++ drop (idx + 1) (take len arr)).
        { rewrite app_assoc. rewrite take_app_le; [|rewrite app_length, take_length, drop_length, take_length; lia].
          apply take_ge. rewrite app_length, take_length, drop_length, take_length. lia. }
        rewrite Ht. apply in_app_iff.
        apply elem_of_list_In in Hin. apply elem_of_take in Hin as (i & Hi1 & Hi2).
        destruct (decide (i < idx)%nat) as [Hlt|Hge].
        { left. apply elem_of_list_In. apply elem_of_take. exists i. split; [exact Hi1|exact Hlt]. }
        destruct (decide (i = idx)) as [->|Hne]; [congruence|].
        right. apply elem_of_list_In. apply elem_of_list_lookup. exists (i - (idx + 1))%nat.
        rewrite lookup_drop, lookup_take by lia. replace (idx + 1 + (i - (idx + 1)))%nat with i by lia. exact Hi1.
    + exact (IH _ _ _ _ _ Hl H Hin).
Qed.

Lemma remove_data_expire_listed data h t :
  match remove_data_expire data h t with
  | Ok _ t' | Err _ t' => metas t' = metas t /\ forall h' x, x <> data -> listed t h' x -> listed t' h' x
  | _ => True end.
Proof.
  unfold remove_data_expire, bind, get. destruct (expdata t !! h) as [l|] eqn:El; [|cbn; auto].
  destruct (rm_expire_loop (length l) 0 l (length l) data) as [[arr len]|] eqn:Er; [|exact I].
  assert (Hk : forall x, x <> data -> In x l -> In x (take len arr)).
  { intros x Hx Hin. eapply (rm_loop_keeps data x Hx _ _ _ _ _ _ _ Er). rewrite take_ge by lia. exact Hin.
    Unshelve. lia. }
  destruct (take len arr) as [|y l'] eqn:Et; unfold modify, set; cbn; (split; [reflexivity|]); intros h' x Hx Hin; unfold listed in *; cbn.
  - destruct (decide (h' = h)) as [->|Hne].
    + rewrite El in Hin. cbn in Hin. destruct (Hk x Hx Hin).
    + rewrite lookup_delete_ne by congruence. exact Hin.
  - destruct (decide (h' = h)) as [->|Hne].
    + rewrite lookup_insert. cbn. rewrite El in Hin. cbn in Hin. apply (Hk x Hx Hin).
    + rewrite lookup_insert_ne by congruence. exact Hin.
Qed.

(** ** assertions carried through a handler *)
Definition Oth' (b : State) (d : string) (o : option Z) (t : State) : Prop :=
  Oth b d t /\ match o with Some h => listed t h d | None => True end.

Lemma ht_oth_keeps {A} b d o (m : M A) : keeps mx m -> ht (Oth' b d o) m (fun _ => Oth' b d o) (Oth' b d o).
Proof.
  intros H t [[Hm Ho] Hl]. specialize (H t). unfold mx in H.
  destruct (m t) as [a t'|e t'|e|]; auto; injection H as Em Ee;
    (split; [split; [congruence|intros d' m' Hd Hb; unfold listed; rewrite Ee; apply (Ho d' m' Hd Hb)]|
             destruct o; [unfold listed; rewrite Ee; exact Hl|exact I]]).
Qed.

Lemma remove_data_expire_noerr d h t e t' : remove_data_expire d h t <> Err e t'.
Proof.
  unfold remove_data_expire, bind, get. destruct (expdata t !! h) as [l|]; [|discriminate].
  destruct (rm_expire_loop _ _ _ _ _) as [[arr len]|]; [|discriminate]. destruct (take len arr); discriminate.
Qed.

Lemma ht_oth_remove b d o h E : ht (Oth' b d o) (remove_data_expire d h) (fun _ => Oth' b d None) E.
Proof.
  intros t [[Hm Ho] _]. pose proof (remove_data_expire_listed d h t) as K. pose proof (remove_data_expire_noerr d h t) as N.
  destruct (remove_data_expire d h t) as [a t'|e t'|e|]; auto; [|exfalso; eapply N; reflexivity]. destruct K as [Em Ke].
  split; [split; [congruence|intros d' m' Hd Hb; apply Ke; [congruence|apply (Ho d' m' Hd Hb)]]|exact I].
Qed.

Lemma ht_oth_set b d o h E : ht (Oth' b d o) (set_data_expire d h) (fun _ => Oth' b d (Some h)) E.
Proof.
  intros t [[Hm Ho] _]. destruct (set_data_expire d h t) as [[] t'|e t'|e|] eqn:E0; auto.
  - destruct (set_data_expire_listed d h t t' E0) as (Em & Hl & Hk).
    split; [split; [congruence|intros d' m' Hd Hb; apply Hk, (Ho d' m' Hd Hb)]|exact Hl].
  - discriminate E0.
Qed.

Lemma ms_logic : @sched_logic Inv_msched Oth'.
Proof.
  split.
  - auto.
  - intros b d Hi. split; [apply Oth_init, Hi|]. destruct (metas b !! d) as [m|] eqn:Em; [apply (Hi d m Em)|exact I].
  - intros b d t [[Hm Ho] Hl] k x Hk. rewrite Hm in Hk.
    destruct (decide (k = d)) as [->|Hne]; [rewrite Hk in Hl; exact Hl|apply (Ho k x Hne Hk)].
  - intros T. apply ht_oth_keeps.
  - intros b d w t t' [[Hm Ho] Hl] Hk Ee. unfold Oth', Oth, listed. rewrite Ee. split; [split; [reflexivity|]|exact Hl].
    intros d' m' Hd Hb. rewrite (Hk d' Hd), Hm in Hb. apply (Ho d' m' Hd Hb).
  - intros b d h. apply ht_oth_remove.
  - intros b d h. apply ht_oth_set.
  - intros h t Hi Hn d m Hd. pose proof (Hn d m Hd). unfold listed; cbn. rewrite lookup_delete_ne by congruence. apply (Hi d m Hd).
Qed.

Section Sched.
  Context {Inv : State -> Prop} {Asrt : State -> string -> option Z -> State -> Prop} (L : @sched_logic Inv Asrt).

  Lemma inv_mx b t : Inv b -> mx t = mx b -> Inv t.
  Proof.
    intros Hi E. unfold mx in E. injection E as Em Ee. apply (sl_close L t ""). rewrite Em.
    apply (sl_table L b _ _ b); [apply (sl_open L), Hi|intros k _; rewrite Em; reflexivity|exact Ee].
  Qed.
  Lemma keeps_inv {T} (m : M T) : keeps mx m -> mok (Rinv Inv) true m.
  Proof. intros H s. specialize (H s). destruct (m s); auto; intros Hi; apply (inv_mx s); assumption. Qed.

  Lemma at_present b d m : Inv b -> metas b !! d = Some m -> Asrt b d (Some (expiry m)) b.
  Proof. intros Hi Hm. pose proof (sl_open L b d Hi) as H. rewrite Hm in H. exact H. Qed.

  Lemma inv_of_insert b d h t t' m' :
    Asrt b d (Some h) t -> metas t' = <[d := m']> (metas t) -> expdata t' = expdata t -> expiry m' = h -> Inv t'.
  Proof.
    intros Ht Em Ee <-. apply (sl_close L t' d). rewrite Em, lookup_insert.
    apply (sl_table L b _ _ t); [exact Ht|intros k Hk; rewrite Em; apply lookup_insert_ne; congruence|exact Ee].
  Qed.

  Lemma ht_at_keeps {T} b d m0 (m : M T) : metas b !! d = Some m0 -> keeps mx m ->
    ht (Asrt b d (Some (expiry m0))) m (fun _ => Asrt b d (Some (expiry m0))) Inv.
  Proof.
    intros Hm H. eapply ht_conseq; [apply (sl_keeps L _ b d (Some (expiry m0))), H|auto|auto|].
    intros t Ht. apply (sl_close L b d). rewrite Hm. exact Ht.
  Qed.

  (** ** the functions that write the table or the schedule *)
  Ltac start_inv b Hi := apply mok_inv; intros b Hi.
  Ltac same_state Hi := intros ? <-; exact Hi.

  Lemma extend_meta_duration_g data e : u64 e = e -> mok (Rinv Inv) true (extend_meta_duration data e).
  Proof.
    intros He. start_inv b Hi. unfold extend_meta_duration.
    apply ht_bind_get; intros s0 <-.
    destruct (metas b !! data) as [m|] eqn:Em; [|apply ht_ret; same_state Hi].
    cbv zeta. destruct (_ <? _); [|apply ht_ret; same_state Hi].
    apply (ht_pre _ _ _ (Asrt b data (Some (expiry m)))); [|intros t <-; apply (at_present b data m Hi Em)].
    eapply ht_bind; [apply (sl_remove L)|intros []].
    eapply ht_bind; [apply (sl_set L)|intros []].
    apply ht_modify. intros t Ht. eapply inv_of_insert; [exact Ht|unfold set; cbn; reflexivity|reflexivity|].
    unfold expiry; cbn. rewrite u64_add_sub. exact He.
  Qed.

  (* ResetMetaDuration returns the record with the lifetime it re-scheduled (the caller stores it) *)
  Lemma reset_meta_duration_g cx d m b E : height_ok cx ->
    ht (Asrt b d (Some (expiry m))) (reset_meta_duration cx d m) (fun m' t => Asrt b d (Some (expiry m')) t) E.
  Proof.
    intros Hh. unfold reset_meta_duration. apply ht_bind_get; intros s0 Hs0. cbv zeta.
    destruct (_ =? _) eqn:Ed; [apply ht_ret; intros t <-; exact Hs0|].
    apply (ht_pre _ _ _ (Asrt b d (Some (expiry m)))); [|intros t <-; exact Hs0].
    eapply ht_bind; [apply (sl_remove L)|intros []].
    eapply ht_bind; [apply (sl_set L)|intros []].
    apply ht_ret. intros t Ht. unfold expiry at 1; cbn. rewrite u64_add_sub.
    match goal with |- Asrt _ _ (Some (u64 ?e)) _ => assert (He : u64 e = e) end.
    { destruct (_ <=? _); [|apply reset_expired_height_u64].
      destruct Hh as [H1 H2]. rewrite (u64_id (cx_height cx)) by (unfold two63, two64 in *; lia).
      apply u64_id. unfold two63, two64 in *. lia. }
    rewrite He. exact Ht.
  Qed.

  (* the table entry goes first, then the schedule entry: in between [d] is scheduled but absent, and the
     assertion refers to the new table *)
  Lemma remove_model_g b d m E : Inv b -> metas b !! d = Some m ->
    ht (eq b) (modify (fun s => s <| metas ::= delete d |> <| models ::= delete (meta_key m) |>) ;;;
               remove_data_expire d (u64 (m_created m + m_duration m)))
       (fun _ t => Inv t /\ metas t = delete d (metas b)) E.
  Proof.
    intros Hi Hm. eapply ht_bind with (Qm := fun _ t => Asrt t d (Some (expiry m)) t /\ metas t = delete d (metas b)).
    - apply ht_modify. intros t <-. unfold set; cbn. split; [|reflexivity].
      apply (sl_table L b _ _ b); [apply (at_present b d m Hi Hm)|intros k Hk; apply lookup_delete_ne; congruence|reflexivity].
    - intros [] t [Ht Et]. change (u64 (m_created m + m_duration m)) with (expiry m).
      pose proof (sl_remove L t d (expiry m) E t Ht) as K. pose proof (mt_remove_data_expire d (expiry m) t) as Km.
      destruct (remove_data_expire d (expiry m) t); auto. split; [|congruence].
      apply (sl_close L t d). rewrite Et, lookup_delete. exact K.
  Qed.

  Lemma delete_meta_table b d : Inv b ->
    ht (eq b) (delete_meta d) (fun _ t => Inv t /\ metas t = delete d (metas b)) (fun t => t = b /\ metas b !! d = None).
  Proof.
    intros Hi. unfold delete_meta. apply ht_bind_get; intros s0 <-.
    destruct (metas b !! d) as [m|] eqn:Em; [apply (remove_model_g b d m _ Hi Em)|].
    apply ht_fail. intros t <-. split; reflexivity.
  Qed.
  Lemma delete_meta_g d : mok (Rinv Inv) true (delete_meta d).
  Proof.
    start_inv b Hi. eapply ht_conseq; [apply (delete_meta_table b d Hi)|auto|intros _ t [Ht _]; exact Ht|intros t [-> _]; exact Hi].
  Qed.

  Lemma update_permission_g owner data ro rw : mok (Rinv Inv) true (update_permission owner data ro rw).
  Proof.
    start_inv b Hi. unfold update_permission. apply ht_bind_get; intros s0 <-.
    destruct (metas b !! data) as [m|] eqn:Em; [|apply ht_fail; same_state Hi].
    destruct (negb _); [apply ht_fail; same_state Hi|].
    apply ht_modify. intros t <-.
    eapply inv_of_insert; [apply (at_present b data m Hi Em)|unfold set; cbn; reflexivity|reflexivity|reflexivity].
  Qed.

  Lemma rollback_meta_g cx data : height_ok cx -> mok (Rinv Inv) true (rollback_meta cx data).
  Proof.
    intros Hh. start_inv b Hi. unfold rollback_meta. apply ht_bind_get; intros s0 <-.
    destruct (metas b !! data) as [m|] eqn:Em; [|apply ht_ret; same_state Hi].
    destruct (last_opt (m_commits m)) as [lastv|].
    - destruct (last_opt (m_orders m)) as [lo|]; [|apply ht_panic]. cbv zeta.
      eapply ht_bind; [eapply ht_pre; [apply (reset_meta_duration_g cx data _ b _ Hh)|intros t <-; exact (at_present b data m Hi Em)]|].
      intros m2. apply ht_modify. intros t Ht.
      eapply inv_of_insert; [exact Ht|unfold set; cbn; reflexivity|reflexivity|reflexivity].
    - eapply ht_conseq; [apply (remove_model_g b data m Inv Hi Em)|auto|intros _ t [Ht _]; exact Ht|auto].
  Qed.

  Lemma update_meta_g cx oid o : height_ok cx -> mok (Rinv Inv) true (update_meta cx oid o).
  Proof.
    intros Hh. start_inv b Hi. unfold update_meta. apply ht_bind_get; intros s0 <-.
    destruct (negb _); [apply ht_fail; same_state Hi|].
    destruct (metas b !! o_data o) as [m|] eqn:Em; [|apply ht_fail; same_state Hi].
    destruct (negb _); [apply ht_fail; same_state Hi|].
    apply (ht_pre _ _ _ (Asrt b (o_data o) (Some (expiry m)))); [|intros t <-; apply (at_present b _ m Hi Em)].
    eapply ht_bind with (Qm := fun m' t => Asrt b (o_data o) (Some (expiry m')) t).
    - destruct (o_op o =? 1); [apply ht_ret; auto|].
      destruct (o_op o =? 2).
      { destruct (last_opt (m_commits m)) as [lastv|]; [|apply ht_panic].
        eapply ht_bind; [apply (ht_at_keeps b _ m _ Em); kx|]. intros [rev_left sids].
        eapply ht_bind; [apply (ht_at_keeps b _ m _ Em), mx_remove_shards|]. intros []. cbv zeta.
        eapply ht_pre; [apply (reset_meta_duration_g cx (o_data o) _ b Inv Hh)|intros t Ht; exact Ht]. }
      destruct (o_op o =? 3); [apply ht_ret; auto|].
      apply ht_fail. intros t Ht. apply (sl_close L b (o_data o)). rewrite Em. exact Ht.
    - intros m'. apply ht_modify. intros t Ht.
      eapply inv_of_insert; [exact Ht|unfold set; cbn; reflexivity|reflexivity|reflexivity].
  Qed.

  Lemma update_meta_status_commit_g cx oid o : mok (Rinv Inv) true (update_meta_status_commit cx oid o).
  Proof.
    start_inv b Hi. unfold update_meta_status_commit. apply ht_bind_get; intros s0 <-.
    destruct (metas b !! o_data o) as [m|] eqn:Em; [|apply ht_fail; same_state Hi].
    destruct (negb _); [apply ht_fail; same_state Hi|]. cbv zeta.
    destruct (_ <? _); [apply ht_fail; same_state Hi|].
    apply (ht_pre _ _ _ (Asrt b (o_data o) (Some (expiry m)))); [|intros t <-; apply (at_present b _ m Hi Em)].
    eapply ht_bind with (Qm := fun m' t => Asrt b (o_data o) (Some (expiry m')) t).
    - destruct (_ <? _); [|apply ht_ret; auto].
      eapply ht_bind; [apply (sl_remove L)|intros []].
      eapply ht_bind; [apply (sl_set L)|intros []].
      apply ht_ret. intros t Ht. unfold expiry; cbn. rewrite u64_add_sub, u64_idem. exact Ht.
    - intros m'. apply ht_modify. intros t Ht.
      eapply inv_of_insert; [exact Ht|unfold set; cbn; reflexivity|reflexivity|reflexivity].
  Qed.

  (* the table entry is written first: the new model is present but not yet scheduled *)
  Lemma new_meta_g cx o data nm : expiry nm = u64 (o_created o + o_duration o) -> mok (Rinv Inv) true (new_meta cx o data nm).
  Proof.
    intros Hx. start_inv b Hi. unfold new_meta. apply ht_bind_get; intros s0 <-.
    destruct (negb _); [apply ht_fail; same_state Hi|].
    destruct (bool_decide (is_Some (metas b !! data))) eqn:Ex; [apply ht_fail; same_state Hi|].
    destruct (bool_decide (is_Some (models b !! meta_key nm))); [apply ht_fail; same_state Hi|].
    apply bool_decide_eq_false in Ex. apply eq_None_not_Some in Ex.
    pose proof (sl_open L b data Hi) as X. rewrite Ex in X.
    eapply ht_bind with (Qm := fun _ t => Asrt t data None t /\ metas t !! data = Some nm).
    - apply ht_modify. intros t <-. unfold set; cbn. split; [|apply lookup_insert].
      apply (sl_table L b _ _ b); [exact X|intros k Hk; apply lookup_insert_ne; congruence|reflexivity].
    - intros [] t [Ht Et]. pose proof (sl_set L t data (u64 (o_created o + o_duration o)) Inv t Ht) as K.
      destruct (set_data_expire data _ t); auto. apply (sl_close L t data). rewrite Et. cbn. rewrite Hx. exact K.
  Qed.

  (** ** the model end blocker *)
  (* while the list scheduled at height [h] is worked off, the models whose lifetime ends at [h] are still ahead in it *)
  Definition ahead (h : Z) (rem : list string) (t : State) : Prop :=
    Inv t /\ forall d m, metas t !! d = Some m -> expiry m = h -> In d rem.

  Lemma delete_meta_ahead h d0 rem : ht (ahead h (d0 :: rem)) (delete_meta d0) (fun _ => ahead h rem) (ahead h rem).
  Proof.
    intros t [Hi Hk]. pose proof (delete_meta_table t d0 Hi t eq_refl) as H.
    destruct (delete_meta d0 t) as [a t'|e t'|e|]; auto.
    - destruct H as [Hi' Em]. split; [exact Hi'|]. intros d m Hd Hx. rewrite Em in Hd.
      apply lookup_delete_Some in Hd as [Hne Hd]. destruct (Hk d m Hd Hx) as [->|Hin]; [congruence|exact Hin].
    - destruct H as [-> Hn]. split; [exact Hi|]. intros d m Hd Hx.
      destruct (Hk d m Hd Hx) as [->|Hin]; [congruence|exact Hin].
  Qed.

  Lemma end_block_model_g cx : mok (Rinv Inv) true (end_block_model cx).
  Proof.
    start_inv b Hi. unfold end_block_model. apply ht_bind_get; intros s0 <-.
    destruct (expdata b !! cx_height cx) as [l|] eqn:El; [|apply ht_ret; same_state Hi].
    eapply ht_bind with (Qm := fun _ t => ahead (cx_height cx) [] t).
    - apply (ht_conseq _ _ _ (ahead (cx_height cx) l) (fun _ t => ahead (cx_height cx) [] t) (ahead (cx_height cx) [])).
      + clear El. induction l as [|d0 rem IH]; cbn [forM]; [apply ht_ret; auto|].
        apply (ht_bind _ _ _ _ _ (fun _ t => ahead (cx_height cx) rem t)); [|intros []; exact IH].
        apply (ht_bind _ _ _ _ _ (fun _ t => ahead (cx_height cx) rem t)); [apply ht_try, delete_meta_ahead|].
        intros r. apply ht_ret. auto.
      + intros t <-. split; [exact Hi|]. intros d m Hd Hx.
        pose proof (sl_sched L b Hi d m Hd) as Hl. unfold listed in Hl. rewrite Hx, El in Hl. exact Hl.
      + auto.
      + intros t [Ht _]. exact Ht.
    - intros []. apply ht_modify. intros t [Ht Hk]. apply (sl_drop L _ t Ht). intros d m Hd Hx. exact (Hk d m Hd Hx).
  Qed.

  (** ** the handlers *)
  Hint Resolve delete_meta_g update_permission_g update_meta_status_commit_g end_block_model_g : schdb.
  Hint Extern 1 (mok _ true (extend_meta_duration _ (u64 _))) => apply extend_meta_duration_g, u64_idem : schdb.

  Section Height.
    Context (cx : Ctx) (Hh : height_ok cx).

    (* hints with a pattern, so that [apply] is tried on these two calls only *)
    Hint Extern 1 (mok _ _ (rollback_meta _ _)) => apply rollback_meta_g; assumption : schdb.
    Hint Extern 1 (mok _ _ (update_meta _ _ _)) => apply update_meta_g; assumption : schdb.
    Ltac sm_leaf := first [ solve [auto with schdb nocore] | solve [apply keeps_inv; first [kx_leaf | kx]] ].
    Ltac sm1 := cbv beta; mok_walk1 ltac:(intros Hi; apply (inv_mx _ _ Hi); reflexivity) sm_leaf.
    Ltac sm := repeat sm1.
    (* the same, stopping in front of a loop whose result the continuation depends on *)
    Ltac smv := repeat (lazymatch goal with
                        | |- mok _ _ (bind ((fix go l acc {struct l} := _) _ _) _) => fail
                        | |- mok _ _ (bind (new_order _ _ _) _) => fail
                        | |- _ => sm1 end).

    Lemma cancel_order_g oid : mok (Rinv Inv) true (cancel_order cx oid).
    Proof. unfold cancel_order. sm. Qed.
    Hint Resolve cancel_order_g : schdb.

    Lemma sao_complete_g c p oid cid sz ok : mok (Rinv Inv) true (sao_complete cx c p oid cid sz ok).
    Proof. unfold sao_complete. sm. Qed.

    Lemma sao_cancel_g c p oid : mok (Rinv Inv) true (sao_cancel cx c p oid).
    Proof. unfold sao_cancel. sm. Qed.

    Lemma sao_terminate_g c p owner data sg : mok (Rinv Inv) true (sao_terminate cx c p owner data sg).
    Proof. unfold sao_terminate. sm. all: try (mok_loop; sm; auto). Qed.

    Lemma sao_update_permission_g c p owner data ro rw sg v : mok (Rinv Inv) true (sao_update_permission cx c p owner data ro rw sg v).
    Proof. unfold sao_update_permission. sm. Qed.

    Lemma handle_timeout_order_g oid : mok (Rinv Inv) true (handle_timeout_order cx oid).
    Proof. unfold handle_timeout_order. sm. all: try (mok_loop; sm; auto). Qed.
    Hint Resolve handle_timeout_order_g : schdb.

    Lemma handle_expired_shard_g sid : mok (Rinv Inv) true (handle_expired_shard cx sid).
    Proof. unfold handle_expired_shard. sm. Qed.
    Hint Resolve handle_expired_shard_g : schdb.

    Lemma end_block_sao_g : mok (Rinv Inv) true (end_block_sao cx).
    Proof. unfold end_block_sao. sm. Qed.

    (* Renew: the end height handed to ExtendMetaDuration is a uint64 *)
    Lemma renew_one_g m sd data : mok (Rinv Inv) true (renew_one cx m sd data).
    Proof.
      unfold renew_one. smv.
      eapply (mok_bind_v (Rinv Inv) (fun e => u64 e = e)).
      - mok_loop; sm; auto.
      - match goal with |- vok _ (?F ?l0 0) => assert (Hg : forall l' acc, u64 acc = acc -> vok (fun e => u64 e = e) (F l' acc)) end.
        { induction l' as [|[id sh] r IH]; intros acc Ha; fix_unfold; [apply vok_ret, Ha|].
          intros s. unfold bind at 1.
          match goal with |- match (match ?c with _ => _ end) with _ => _ end => destruct c as [a1 s1|e s1|e|] eqn:Ec end; auto.
          assert (Ha1 : u64 a1 = a1).
          { revert Ec. destruct (sh_status sh =? ShardMigrating); [intros E; injection E as <- _; exact Ha|].
            cbv zeta. destruct (store_reward_pledge _ _ _ <? 0); [discriminate|].
            unfold bind at 1. match goal with |- match ?c with _ => _ end = _ -> _ => destruct c as [sh1 s2|?|?|] end; try discriminate.
            unfold bind, modify, ret. intros E. injection E as <- _.
            destruct (acc <? _); [apply shard_end_all_u64|exact Ha]. }
          apply (IH a1 Ha1 s1). }
        apply Hg. reflexivity.
      - intros e He. sm. apply extend_meta_duration_g, He.
    Qed.

    Lemma sao_renew_g m : mok (Rinv Inv) true (sao_renew cx m).
    Proof. unfold sao_renew. sm. apply renew_one_g. Qed.

    Lemma end_block_g evs : mok (Rinv Inv) true (end_block cx evs).
    Proof.
      unfold end_block. apply mok_bind; try exact _; [apply keeps_inv, mv_mx, mv_staking_tx|intros _].
      apply mok_bind; try exact _; [apply end_block_sao_g|intros _].
      apply mok_bind; try exact _; [|intros _; apply end_block_model_g].
      apply keeps_inv. unfold end_block_node, do_penalty. kx.
    Qed.

    Lemma sao_store_g m : mok (Rinv Inv) true (sao_store cx m).
    Proof.
      unfold sao_store. smv.
      eapply (mok_bind_v (Rinv Inv)); [apply keeps_inv; kx|apply new_order_v|]. intros [oid o2] [Hc Hd]; cbn [snd] in Hc, Hd.
      sm. apply new_meta_g. unfold expiry; cbn. rewrite Hc, Hd. reflexivity.
    Qed.

    Theorem sched_step_inv s op : Inv s -> Inv (fst (step cx s op)).
    Proof.
      apply (step_rel_model (Rinv Inv) (fun _ => True) cx);
        auto using end_block_g, sao_store_g, sao_complete_g, sao_cancel_g, sao_renew_g, sao_terminate_g, sao_update_permission_g.
      intros T m H. apply keeps_inv, mv_mx, H.
    Qed.
  End Height.

  Theorem sched_run_inv tr : forall s, Forall (fun co : Ctx * Op => height_ok co.1) tr -> Inv s -> Inv (run tr s).
  Proof.
    revert tr. apply (run_preserves Inv (fun tr _ => Forall (fun co : Ctx * Op => height_ok co.1) tr)).
    intros cx op tr s Hf Hi. apply Forall_cons in Hf as [Hh Hf]. split; [apply sched_step_inv; assumption|exact Hf].
  Qed.
End Sched.

Lemma delete_meta_s data : mok Rms true (delete_meta data).
Proof. exact (delete_meta_g ms_logic data). Qed.
Lemma update_permission_s owner data ro rw : mok Rms true (update_permission owner data ro rw).
Proof. exact (update_permission_g ms_logic owner data ro rw). Qed.
Lemma update_meta_status_commit_s cx oid o : mok Rms true (update_meta_status_commit cx oid o).
Proof. exact (update_meta_status_commit_g ms_logic cx oid o). Qed.

Section Handlers.
  Context (cx : Ctx) (Hh : height_ok cx).

  Lemma cancel_order_s oid : mok Rms true (cancel_order cx oid).
  Proof. exact (cancel_order_g ms_logic cx Hh oid). Qed.
  Lemma handle_timeout_order_s oid : mok Rms true (handle_timeout_order cx oid).
  Proof. exact (handle_timeout_order_g ms_logic cx Hh oid). Qed.
  Lemma handle_expired_shard_s sid : mok Rms true (handle_expired_shard cx sid).
  Proof. exact (handle_expired_shard_g ms_logic cx sid). Qed.
End Handlers.

(** * every operation, every run *)
Theorem step_meta_scheduled : forall cx s op, height_ok cx -> Inv_msched s -> Inv_msched (fst (step cx s op)).
Proof. intros cx s op Hh. exact (sched_step_inv ms_logic cx Hh s op). Qed.
Print Assumptions step_meta_scheduled.

(* C11 / C05 along a run of ABCI calls at heights below 2^63 *)
Theorem run_meta_scheduled : forall tr s,
  Forall (fun co : Ctx * Op => height_ok co.1) tr -> Inv_msched s -> Inv_msched (run tr s).
Proof.
  exact (sched_run_inv ms_logic).
Qed.
Print Assumptions run_meta_scheduled.

Corollary expiring_model_is_listed : forall tr s cx d m,
  Forall (fun co : Ctx * Op => height_ok co.1) tr -> Inv_msched s ->
  metas (run tr s) !! d = Some m -> expiry m = cx_height cx ->
  exists l, expdata (run tr s) !! cx_height cx = Some l /\ In d l.
Proof.
  intros tr s cx d m Hf Hi Hd Hx. pose proof (run_meta_scheduled tr s Hf Hi d m Hd) as Hl. unfold listed in Hl. rewrite Hx in Hl.
  destruct (expdata (run tr s) !! cx_height cx) as [l|]; [exists l; split; [reflexivity|exact Hl]|destruct Hl].
Qed.

(** ** non-vacuity *)
Lemma mon_meta_scheduled_sound s : mon_meta_scheduled s = true -> Inv_msched s.
Proof. intros H d m Hd. pose proof (all_s_spec _ _ H d m Hd) as Hb. cbn beta in Hb. apply in_list_In in Hb. exact Hb. Qed.

Example meta_scheduled_nonvacuous :
  Inv_msched W.s2 /\ (exists m, metas W.s2 !! W.data = Some m /\ expiry m = 3606 /\ expdata W.s2 !! 3606 = Some [W.data]) /\
  Forall (fun co : Ctx * Op => height_ok co.1) History.hist_run /\
  match metas (run History.hist_run W.s2) !! W.data with Some m => expiry m | None => 0 end = 3610.
Proof.
  assert (E : (mon_meta_scheduled W.s2, (expiry <$> metas W.s2 !! W.data, expdata W.s2 !! 3606),
               match metas (run History.hist_run W.s2) !! W.data with Some m => expiry m | None => 0 end)
              = (true, (Some 3606, Some [W.data]), 3610)) by (vm_compute; reflexivity).
  apply pair_equal_spec in E as [E E4]. apply pair_equal_spec in E as [E1 E]. apply pair_equal_spec in E as [E2 E3].
  split; [apply mon_meta_scheduled_sound, E1|].
  split; [destruct (metas W.s2 !! W.data) as [m|]; [injection E2 as E2; exists m; auto|discriminate E2]|].
  split; [|exact E4]. unfold History.hist_run. repeat (apply List.Forall_cons; [split; vm_compute; congruence|]). apply List.Forall_nil.
Qed.
