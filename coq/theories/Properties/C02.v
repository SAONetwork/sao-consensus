(* C02 -- Chain liveness: block processing always completes, never halts the chain.

   Proved: no transaction and no block phase of the model ever fails to return (the only loops
   that are not structural are the seed-consuming index draw and the super-node scan; both are
   repaired in the code -- D1, D3 -- and proved terminating), for every state, operation and
   seed of at most 400 decimal digits. The selection kernels terminate (C15 file).
   NOT proved as a theorem: absence of panics in BeginBlock / EndBlock for every reachable
   state. It depends on global invariants (collateral counters, duplicate-free schedules,
   bounded reward counter) that are evaluated as monitors on implementation states, and it is
   false for validated parameter sets: finding D19 (BlockReward above half the total reward
   panics at the third minted block), exhibited on the model below (begin_block_mint_refuted
   shows the reward bound needs a non-negative parameter; the D19 scenario halts both the
   model and the real chain). Every halt or hang of the implementation in any generated
   history is reported as a violation with that history as replay.

   BeginBlock (Proofs/BeginLive.v): with a block reward of at most half the total reward, a halving period of at
   least 2 and a non-negative APY, BeginBlock never panics in any state reachable from a state in which the pool totals
   are the sums over providers, every provider's capacity is 10^6 bytes per pledged coin and the reward counter is below
   the total -- three invariants proved preserved by EVERY operation (step_live), so no BeginBlock of any run halts the
   chain (run_begin_block_never_halts). A block reward above half the total is finding D19 (begin_block_mint_refuted).
   Panic-freedom of EndBlock is not proved; it is tested (halt detection on every generated history). *)
From SaoVerif Require Import Base.Prelude Base.Ints Base.Dec Model.Did Model.Types Model.Monad Model.Bank Model.Select Model.Node Model.Storage Model.Sao Model.Hooks Model.App Model.Spec Proofs.SelectFacts Proofs.Frame Proofs.Accumulator Model.Monitors Proofs.RefInt Proofs.BeginLive Proofs.MetaSched Proofs.DataSched Proofs.ReleaseLive.
From RecordUpdate Require Import RecordUpdate.
Import RecordSetNotations.

Theorem C02_step_never_hangs : forall cx s op s' o, seed_ok cx -> step cx s op = (s', o) ->
  o <> OutTx CHang "" /\ (forall d, o <> OutBlock BHung d) /\ (forall d, o <> OutTx CHang d).
Proof. apply step_never_hangs. Qed.
Print Assumptions C02_step_never_hangs.

Theorem C02_random_index_terminates : forall seed total count,
  0 <= seed -> seed < 10 ^ 400 ->
  random_index seed total count <> SelHang /\ random_index seed total count <> SelPanic.
Proof. apply random_index_terminates. Qed.
Print Assumptions C02_random_index_terminates.

Theorem C02_next_super_terminates : forall nodes pledges round0 ignore size,
  next_super nodes pledges round0 ignore size <> SelHang.
Proof. apply next_super_terminates. Qed.
Print Assumptions C02_next_super_terminates.

Theorem C02_random_sp_terminates : forall nodes pledges round0 seed count ignore size,
  0 <= seed -> seed < 10 ^ 400 ->
  random_sp nodes pledges round0 seed count ignore size <> SelHang.
Proof. apply random_sp_terminates. Qed.
Print Assumptions C02_random_sp_terminates.

(* BeginBlock never panics in a state that satisfies the three invariants - with a block reward of at most half the total (the complement is finding D19) *)
Theorem C02_begin_block_never_panics : forall cx s e,
  Inv_pool s -> Inv_k s -> Inv_rem s -> params_ok s -> begin_block cx s <> Panic e.
Proof. apply begin_block_never_panics. Qed.
Print Assumptions C02_begin_block_never_panics.

(* the invariants are preserved by every operation *)
Theorem C02_step_live : forall cx s op, Live s -> Live (fst (step cx s op)).
Proof. apply step_live. Qed.
Print Assumptions C02_step_live.

(* hence no BeginBlock of any run halts the chain *)
Theorem C02_run_begin_block_never_halts : forall tr s cx e,
  Live s -> begin_block cx (run tr s) <> Panic e.
Proof. apply run_begin_block_never_halts. Qed.
Print Assumptions C02_run_begin_block_never_halts.

Theorem C02_live_nonvacuous :
  Live ex_genesis /\ Live (run ex_trace ex_genesis) /\
  (exists po, pool (run ex_trace ex_genesis) = Some po /\ po_reward po = 3000 /\ 0 < po_pledged po) /\
  forall e, begin_block (ex_cx 5) (run ex_trace ex_genesis) <> Panic e.
Proof. apply live_nonvacuous. Qed.
Print Assumptions C02_live_nonvacuous.

(* the re-slicing loop of removeDataExpireBlock (it runs out of bounds on a duplicate) never panics in a reachable state *)
Theorem C02_remove_data_expire_never_panics : forall tr s data h e,
  Forall (fun co : Ctx * Op => height_ok co.1) tr -> Inv_ds s -> remove_data_expire data h (run tr s) <> Panic e.
Proof. apply remove_data_expire_never_panics. Qed.
Print Assumptions C02_remove_data_expire_never_panics.

(* the release of a shard never panics when its collateral is covered by the recorded total *)
Theorem C02_release_covered_never_panics sp sh s p :
  pledges s !! sp = Some p -> sh_pledge sh <= pl_shpledged p ->
  match shard_release sp (Some sh) s with Panic _ | Hang => False | _ => True end.
Proof. apply release_covered_never_panics. Qed.
Print Assumptions C02_release_covered_never_panics.

(* and it does panic when it is not - the shape finding D23 produces *)
Theorem C02_release_uncovered_panics sp sh s p po :
  pledges s !! sp = Some p -> pool s = Some po -> sh_sp sh = sp -> debts s !! sp = None ->
  0 < sh_pledge sh <= balance s (macc NODE) -> pl_shpledged p < sh_pledge sh ->
  shard_release sp (Some sh) s = Panic "negative coin amount".
Proof. apply release_uncovered_panics. Qed.
Print Assumptions C02_release_uncovered_panics.

(* the clause live.release_covered decides it for every completed shard of a state *)
Theorem C02_release_covered_sound s :
  mon_release_covered s = true ->
  (forall id sh, shards s !! id = Some sh -> 0 <= sh_pledge sh) ->
  forall id sh p, shards s !! id = Some sh -> sh_status sh = ShardCompleted -> pledges s !! sh_sp sh = Some p ->
    match shard_release (sh_sp sh) (Some sh) s with Panic _ | Hang => False | _ => True end.
Proof. apply release_covered_sound. Qed.
Print Assumptions C02_release_covered_sound.

Theorem C02_release_covered_nonvacuous :
  mon_release_covered W.s2 = true /\
  (exists sh p, shards W.s2 !! 1 = Some sh /\ sh_status sh = ShardCompleted /\ sh_sp sh = "T" /\ pledges W.s2 !! "T" = Some p /\
     0 < sh_pledge sh /\ sh_pledge sh <= pl_shpledged p /\
     shard_release "T" (Some sh) (W.s2 <| pledges ::= <["T" := p <| pl_shpledged := 0 |>]> |>) = Panic "negative coin amount").
Proof. apply release_covered_nonvacuous. Qed.
Print Assumptions C02_release_covered_nonvacuous.

Theorem C02_begin_block_mint_refuted : exists cx s s' d,
  step cx s OBeginBlock = (s', OutBlock BOk d) /\
  ~ exists m, 0 <= m /\ supply s' = supply s + m /\ m <= np_reward (nparams s).
Proof. apply begin_block_mint_refuted. Qed.
Print Assumptions C02_begin_block_mint_refuted.
