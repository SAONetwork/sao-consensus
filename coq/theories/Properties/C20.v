(* C20 -- Super-node role held only while pledge and validator-stake requirements hold.

   Proved: a promotion by the node's own Reset or AddVstorage happens only when status,
   pledged capacity and delegation share all hold in the resulting state; RemoveVstorage below
   the threshold demotes; a promotion by the staking hooks of an SDK-shaped Delegate or Unbond
   that starts without residue holds the requirements in the FINAL state (the hook compensates
   for the validator's not-yet-reduced shares); after a Delegate every super delegator node of
   the validator satisfies them. Refuted with residue (finding D10): a node holding 9.9% is
   promoted. super.role_ok is evaluated on the implementation after every step. *)
From SaoVerif Require Import Base.Prelude Base.Ints Base.Dec Model.Did Model.Types Model.Monad Model.Bank Model.Select Model.Node Model.Storage Model.Sao Model.Hooks Model.App Model.Spec Proofs.HooksFacts Proofs.ValHook.
From RecordUpdate Require Import RecordUpdate.
Import RecordSetNotations.

Theorem C20_reset_promotion_sound : forall cx s m s' d n', step cx s (ONodeReset m) = (s', OutTx COk d) ->
  nodes s' !! rs_creator m = Some n' -> n_role n' = 1 -> super_ok s' (rs_creator m) n'.
Proof. apply reset_promotion_sound. Qed.
Print Assumptions C20_reset_promotion_sound.

Theorem C20_add_vstorage_promotion_sound : forall cx s c sz s' d n n', step cx s (OAddVstorage c sz) = (s', OutTx COk d) ->
  nodes s !! c = Some n -> n_role n = 0 -> nodes s' !! c = Some n' -> n_role n' = 1 -> super_ok s' c n'.
Proof. apply add_vstorage_promotion_sound. Qed.
Print Assumptions C20_add_vstorage_promotion_sound.

Theorem C20_remove_vstorage_demotes_partial : forall cx s c sz s' d n' p', step cx s (ORemoveVstorage c sz) = (s', OutTx COk d) ->
  nodes s' !! c = Some n' -> pledges s' !! c = Some p' -> pl_total p' < np_vthreshold (nparams s') -> n_role n' <> 1.
Proof. apply remove_vstorage_demotes_partial. Qed.
Print Assumptions C20_remove_vstorage_demotes_partial.

Theorem C20_remove_vstorage_demotes_wf : forall cx s c sz s' d n' p',
  (forall n, nodes s !! c = Some n -> n_role n = 0 \/ n_role n = 1) ->
  step cx s (ORemoveVstorage c sz) = (s', OutTx COk d) ->
  nodes s' !! c = Some n' -> pledges s' !! c = Some p' -> pl_total p' < np_vthreshold (nparams s') -> n_role n' = 0.
Proof. apply remove_vstorage_demotes_wf. Qed.
Print Assumptions C20_remove_vstorage_demotes_wf.

Theorem C20_delegate_promotion_sound_partial : forall cx s del val key existed amount v' d' s' d addr n n',
  pg s = 0 -> step cx s (OStaking (ev_delegate del val key existed amount v' d')) = (s', OutTx COk d) ->
  (existed = true <-> is_Some (del_shares s del val)) -> dl_del d' = del -> dl_val d' = val ->
  (* the key is the delegation's own key: no other record for (del,val) *)
  (forall k x, dels s !! k = Some x -> dl_del x = del -> dl_val x = val -> k = key) ->
  (* added: Delegate does not lower the delegator's shares *)
  (forall old, del_shares s del val = Some old -> old <= dl_shares d') ->
  nodes s !! addr = Some n -> n_role n = 0 -> nodes s' !! addr = Some n' -> n_role n' = 1 -> super_ok s' addr n'.
Proof. apply delegate_promotion_sound_partial. Qed.
Print Assumptions C20_delegate_promotion_sound_partial.

Theorem C20_unbond_partial_promotion_sound : forall cx s del val key d' v' s' d v old new addr n n',
  step cx s (OStaking (ev_unbond_partial del val key d' v')) = (s', OutTx COk d) ->
  vals s !! val = Some v -> del_shares s del val = Some old ->
  dl_del d' = del -> dl_val d' = val -> dl_shares d' = new -> 0 <= new -> new < old ->
  v_shares v' = v_shares v - (old - new) ->
  (forall k x, dels s !! k = Some x -> dl_del x = del -> dl_val x = val -> k = key) ->
  nodes s !! addr = Some n -> n_role n = 0 -> nodes s' !! addr = Some n' -> n_role n' = 1 -> super_ok s' addr n'.
Proof. apply unbond_partial_promotion_sound. Qed.
Print Assumptions C20_unbond_partial_promotion_sound.

Theorem C20_delegate_supers_sound : forall cx s del val key existed amount v' d' s' d k x n',
  pg s = 0 -> step cx s (OStaking (ev_delegate del val key existed amount v' d')) = (s', OutTx COk d) ->
  dl_del d' = del -> dl_val d' = val ->
  (forall k x, dels s !! k = Some x -> dl_del x = del -> dl_val x = val -> k = key) ->
  (forall old, del_shares s del val = Some old -> old <= dl_shares d') ->
  dels s' !! k = Some x -> dl_val x = val ->
  nodes s' !! dl_del x = Some n' -> n_val n' = val -> n_role n' = 1 -> super_ok s' (dl_del x) n'.
Proof. apply delegate_supers_sound. Qed.
Print Assumptions C20_delegate_supers_sound.

Theorem C20_promotion_with_residue_refuted : exists cx s evs s' d addr n n',
  step cx s (OStaking evs) = (s', OutTx COk d) /\ nodes s !! addr = Some n /\ n_role n = 0 /\
  nodes s' !! addr = Some n' /\ n_role n' = 1 /\ ~ super_ok s' addr n'.
Proof. apply promotion_with_residue_refuted. Qed.
Print Assumptions C20_promotion_with_residue_refuted.

Theorem C20_delegate_promotion_sound_refuted : exists cx s del val key existed amount v' d' s' d addr n n',
  pg s = 0 /\ step cx s (OStaking (ev_delegate del val key existed amount v' d')) = (s', OutTx COk d) /\
  (existed = true <-> is_Some (del_shares s del val)) /\ dl_del d' = del /\ dl_val d' = val /\
  (forall k x, dels s !! k = Some x -> dl_del x = del -> dl_val x = val -> k = key) /\
  nodes s !! addr = Some n /\ n_role n = 0 /\ nodes s' !! addr = Some n' /\ n_role n' = 1 /\ ~ super_ok s' addr n'.
Proof. apply delegate_promotion_sound_refuted. Qed.
Print Assumptions C20_delegate_promotion_sound_refuted.

(* the validator-change clause - after the hook of a bonded / unbonding / removed validator every delegator node of it that still holds the role satisfies the requirements *)
Theorem C20_val_hook_supers_sound : forall val s s' k x n',
  st_event (EvValHook val) s = Ok tt s' ->
  dels s !! k = Some x -> dl_val x = val ->
  nodes s' !! dl_del x = Some n' -> n_val n' = val -> n_role n' = 1 -> super_ok s' (dl_del x) n'.
Proof. apply val_hook_supers_sound. Qed.
Print Assumptions C20_val_hook_supers_sound.

Theorem C20_val_hook_frame : forall val s s', st_event (EvValHook val) s = Ok tt s' ->
  pg s' = 0 /\ pledges s' = pledges s /\ nparams s' = nparams s /\ vals s' = vals s /\ dels s' = dels s.
Proof. apply val_hook_frame. Qed.
Print Assumptions C20_val_hook_frame.
