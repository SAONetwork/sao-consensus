(* C12 -- Timeout progress: every unfinished order is eventually completed or refunded.

   Step theorems about HandleTimeoutOrder / Ready (Model/Sao.v): a fully stored order is
   left alone; handing an order to providers schedules the first check; an unresolved check
   re-schedules itself, cancels the order or reduces its replicas -- unless the refund of the
   cancellation fails (cancel_stuck: the order then stays, without shards and without a
   scheduled check; needs an order whose payer has no payment address or an insolvent
   escrow). Bounded response is proved by a variant (Proofs/Progress.v): along any sequence of checks of
   one order that leave it unresolved -- with anything in between that keeps the order, its shards' providers
   and the pledged population -- the number of checks is at most 11 + the number of pledged providers not yet
   tried for the order (checks_bounded, checks_bounded_by_population); what the theorem does not cover is that
   the NEXT check is actually scheduled: the refutations below exhibit the two known ways it is not (finding D15).
   The variant of progress is proved at the call site (Proofs/Placement.v, timeout_new_shards_fresh): every
   shard a timeout check creates goes to an eligible provider that neither holds nor has timed out on a shard
   of the order, so each re-assignment uses up a provider; the clause is also the monitor
   sel.order_sps_distinct on implementation states. *)
From SaoVerif Require Import Base.Prelude Base.Ints Base.Dec Model.Did Model.Types Model.Monad Model.Bank Model.Select Model.Node Model.Storage Model.Sao Model.Hooks Model.App Model.Spec Proofs.Schedule Proofs.RefInt Proofs.Placement Proofs.Progress.
From RecordUpdate Require Import RecordUpdate.
Import RecordSetNotations.

Theorem C12_timeout_ignores_fully_stored : forall cx oid s o, orders s !! oid = Some o -> o_status o = OrderCompleted ->
  (forall id, In id (o_shards o) -> exists sh, shards s !! id = Some sh /\ sh_status sh = ShardCompleted) ->
  handle_timeout_order cx oid s = Ok tt s.
Proof. apply timeout_ignores_fully_stored. Qed.
Print Assumptions C12_timeout_ignores_fully_stored.

Theorem C12_ready_schedules_timeout : forall cx s c p oid s' d, step cx s (OReady c p oid) = (s', OutTx COk d) ->
  exists o', orders s' !! oid = Some o' /\ In oid (default [] (timeouts s' !! u64 (cx_height cx + o_timeout o'))).
Proof. apply ready_schedules_timeout. Qed.
Print Assumptions C12_ready_schedules_timeout.

Theorem C12_timeout_progress_step_partial : forall cx oid s s' o, handle_timeout_order cx oid s = Ok tt s' -> orders s !! oid = Some o ->
  o_status o <> OrderPending -> u64 (cx_height cx + o_timeout o) < u64 (o_created o + o_duration o) ->
  (exists id sh, In id (o_shards o) /\ shards s !! id = Some sh /\ sh_status sh = ShardWaiting) ->
  Z.of_nat (length (o_shards o)) < two32 ->
  In oid (default [] (timeouts s' !! u64 (cx_height cx + o_timeout o))) \/
  orders s' !! oid = None \/
  (exists o', orders s' !! oid = Some o' /\ o_replica o' <> o_replica o) \/
  cancel_stuck oid o s s'.
Proof. apply timeout_progress_step_partial. Qed.
Print Assumptions C12_timeout_progress_step_partial.

Theorem C12_timeout_progress_step_refuted : exists cx oid s s' o,
  handle_timeout_order cx oid s = Ok tt s' /\ orders s !! oid = Some o /\
  o_status o <> OrderPending /\ u64 (cx_height cx + o_timeout o) < u64 (o_created o + o_duration o) /\
  (exists id sh, In id (o_shards o) /\ shards s !! id = Some sh /\ sh_status sh = ShardWaiting) /\
  Z.of_nat (length (o_shards o)) < two32 /\
  ~ (In oid (default [] (timeouts s' !! u64 (cx_height cx + o_timeout o))) \/
     orders s' !! oid = None \/
     (exists o', orders s' !! oid = Some o' /\ o_replica o' <> o_replica o)) /\
  cancel_stuck oid o s s'.
Proof. apply timeout_progress_step_refuted. Qed.
Print Assumptions C12_timeout_progress_step_refuted.

Theorem C12_negative_timeout_refuted : u64 (-1) = two64 - 1 /\ forall h, 0 < h < two63 -> u64 (h + u64 (-1)) = h - 1.
Proof. apply negative_timeout_refuted. Qed.
Print Assumptions C12_negative_timeout_refuted.

Theorem C12_long_timeout_refuted : exists cx oid s o, orders s !! oid = Some o /\ o_status o = OrderDataReady /\
  (exists id sh, In id (o_shards o) /\ shards s !! id = Some sh /\ sh_status sh = ShardWaiting) /\
  handle_timeout_order cx oid s = Ok tt s /\ timeouts s = ∅.
Proof. apply long_timeout_refuted. Qed.
Print Assumptions C12_long_timeout_refuted.

(* the variant of progress - every re-assignment uses up a fresh eligible provider *)
Theorem C12_timeout_new_shards_fresh : forall cx oid s s' o,
  handle_timeout_order cx oid s = Ok tt s' -> orders s !! oid = Some o -> 0 <= cx_seed cx ->
  0 <= shard_count s -> shard_count s + Z.of_nat (length (o_shards o)) < two64 -> fresh_above s ->
  forall id sh', shards s' !! id = Some sh' -> shards s !! id = None ->
    sh_order sh' = oid /\ sh_status sh' = ShardWaiting /\
    (forall id0 sh0, In id0 (o_shards o) -> shards s !! id0 = Some sh0 -> sh_sp sh0 <> sh_sp sh') /\
    (exists n, nodes s !! sh_sp sh' = Some n /\ eligible (pledges s) (i64 (o_size o)) (mkCand (sh_sp sh') n) = true) /\
    (forall id2 sh2, id2 <> id -> shards s' !! id2 = Some sh2 -> shards s !! id2 = None -> sh_sp sh2 <> sh_sp sh').
Proof. apply timeout_new_shards_fresh. Qed.
Print Assumptions C12_timeout_new_shards_fresh.

Theorem C12_timeout_reassign_nonvacuous :
  exists s' o, handle_timeout_order (W.cxh 105) 1 W.s1 = Ok tt s' /\ orders W.s1 !! 1 = Some o /\
    fresh_above W.s1 /\ shard_count W.s1 = 2 /\ shards W.s1 !! 2 = None /\
    (exists sh, shards W.s1 !! 1 = Some sh /\ sh_sp sh = "T") /\
    (exists sh', shards s' !! 2 = Some sh' /\ sh_sp sh' = "S" /\ sh_status sh' = ShardWaiting) /\
    (exists sh1, shards s' !! 1 = Some sh1 /\ sh_status sh1 = ShardTimeout).
Proof. apply timeout_reassign_nonvacuous. Qed.
Print Assumptions C12_timeout_reassign_nonvacuous.

(* every check resolves the order or finds it young or re-assigns to providers not yet tried *)
Theorem C12_timeout_check_cases : forall cx oid s s' o,
  handle_timeout_order cx oid s = Ok tt s' -> orders s !! oid = Some o ->
  o_status o <> OrderPending -> u64 (cx_height cx + o_timeout o) < u64 (o_created o + o_duration o) ->
  has_waiting s o -> side cx s o ->
  resolved oid s' \/ young cx oid o s s' \/ reassigned oid o s s'.
Proof. apply timeout_check_cases. Qed.
Print Assumptions C12_timeout_check_cases.

(* bounded response by a variant *)
Theorem C12_checks_bounded : forall oid tau c cxs h s o,
  chain oid tau h cxs s -> orders s !! oid = Some o -> o_created o = c -> 0 < tau < two31 -> 0 <= c <= h ->
  Z.of_nat (length cxs) <= Z.max 0 ((c + MAX_TRIES * tau - h) / tau) + Z.of_nat (untried s o) + 1.
Proof. apply checks_bounded. Qed.
Print Assumptions C12_checks_bounded.

Theorem C12_checks_bounded_by_population : forall oid tau cxs h s o,
  chain oid tau h cxs s -> orders s !! oid = Some o -> 0 < tau < two31 -> 0 <= o_created o <= h ->
  Z.of_nat (length cxs) <= 11 + Z.of_nat (size (pledges s)).
Proof. apply checks_bounded_by_population. Qed.
Print Assumptions C12_checks_bounded_by_population.

Theorem C12_chain_nonvacuous :
  chain 1 100 5 [W.cxh 105; W.cxh 205] W.s1 /\
  (exists o, orders W.s1 !! 1 = Some o /\ untried W.s1 o = 1%nat /\ o_created o = 5 /\ o_timeout o = 100) /\
  (exists o', orders p_s2' !! 1 = Some o' /\ untried p_s2' o' = 0%nat /\ length (o_shards o') = 2%nat).
Proof. apply chain_nonvacuous. Qed.
Print Assumptions C12_chain_nonvacuous.
