(* C08 -- Block-reward accounting: minted on schedule, shared pro rata, never over-claimed.

   With phi = sum over providers of (settled reward + pending reward) -- everything credited
   and not yet claimed -- the theorems say: BeginBlock mints m with 0 <= m <= BlockReward (and
   0 while nothing is pledged), moves the cumulative counter and the node escrow by exactly m;
   it raises phi by at most m (pro rata: each provider's credit grows by delta-acc x its
   capacity); a claim lowers phi by a whole number of coins of the claimer only; nothing else
   changes phi or the supply; hence over any history claimed + claimable <= initial + minted.
   Hypotheses: Settled (no pending reward on a zero-capacity pledge) and non-negative
   capacities at block starts, both preserved by every operation (step_settled); the
   refutations show they are needed for hand-built states. The sharper per-age bound
   m <= BlockReward >> age (subsidy_cap, Spec.v) is begin_block_mint_age, and the cap never grows
   again (begin_block_cap_decreases); the same bound is a monitor (mint.within_age_cap) on
   implementation states.
   The generated obligation single_mint_site says MintCoins is called at one place. *)
From SaoVerif Require Import Base.Prelude Base.Ints Base.Dec Model.Did Model.Types Model.Monad Model.Bank Model.Select Model.Node Model.Storage Model.Sao Model.Hooks Model.App Model.Spec Proofs.Accumulator Proofs.MintCap.
From RecordUpdate Require Import RecordUpdate.
Import RecordSetNotations.

Theorem C08_begin_block_mint : forall cx s s' d,
  0 <= np_reward (nparams s) ->
  step cx s OBeginBlock = (s', OutBlock BOk d) ->
  exists m, 0 <= m /\ supply s' = supply s + m /\ balance s' (macc NODE) = balance s (macc NODE) + m /\
    m <= np_reward (nparams s) /\
    (forall po, pool s = Some po -> po_pledged po = 0 -> m = 0) /\
    (forall po, pool s = Some po -> exists po', pool s' = Some po' /\ po_reward po' = po_reward po + m /\
        po_storage po' = po_storage po /\ po_pledged po' = po_pledged po) /\
    pledges s' = pledges s.
Proof. apply begin_block_mint. Qed.
Print Assumptions C08_begin_block_mint.

Theorem C08_begin_block_phi : forall cx s s' d, Inv_pool s -> step cx s OBeginBlock = (s', OutBlock BOk d) ->
  (forall po, pool s = Some po -> 0 < po_storage po) ->
  phi s <= phi s' /\ phi s' - phi s <= dec_of_int (supply s' - supply s) /\
  (forall k p po po', pool s = Some po -> pool s' = Some po' -> pledges s !! k = Some p ->
      claimable (po_accreward po') p - claimable (po_accreward po) p = (po_accreward po' - po_accreward po) * pl_total p).
Proof. apply begin_block_phi. Qed.
Print Assumptions C08_begin_block_phi.

Theorem C08_claim_phi : forall cx s s' d c, Settled s ->
  step cx s (OClaimReward c) = (s', OutTx COk d) -> (exists po, pool s = Some po) ->
  exists coins, 0 <= coins /\ phi s' = phi s - dec_of_int coins /\
    (forall k, k <> c -> pledges s' !! k = pledges s !! k) /\ pool s' = pool s.
Proof. apply claim_phi. Qed.
Print Assumptions C08_claim_phi.

Theorem C08_other_phi : forall cx s op, Settled s -> op <> OBeginBlock -> (forall c, op <> OClaimReward c) ->
  phi (fst (step cx s op)) = phi s.
Proof. apply other_phi. Qed.
Print Assumptions C08_other_phi.

Theorem C08_other_supply : forall cx s op, op <> OBeginBlock -> supply (fst (step cx s op)) = supply s.
Proof. apply other_supply. Qed.
Print Assumptions C08_other_supply.

Theorem C08_step_settled : forall cx s op, Settled s -> (op = OBeginBlock -> Nonneg s) -> Settled (fst (step cx s op)).
Proof. apply step_settled. Qed.
Print Assumptions C08_step_settled.

Theorem C08_claim_pays : forall cx s s' d c, step cx s (OClaimReward c) = (s', OutTx COk d) ->
  exists p, pledges s !! c = Some p /\
    (forall a, a <> c -> a <> macc NODE -> a <> macc MARKET -> bal s' !! a = bal s !! a).
Proof. apply claim_pays. Qed.
Print Assumptions C08_claim_pays.

Theorem C08_no_overclaim : forall tr s, Inv_pool s -> Settled s -> nonneg_at_blocks tr s ->
  phi (run tr s) + claimed_in tr s <= phi s + dec_of_int (minted_in tr s).
Proof. apply no_overclaim. Qed.
Print Assumptions C08_no_overclaim.

Theorem C08_other_phi_refuted : exists cx s op,
  op <> OBeginBlock /\ (forall c, op <> OClaimReward c) /\ phi (fst (step cx s op)) <> phi s.
Proof. apply other_phi_refuted. Qed.
Print Assumptions C08_other_phi_refuted.

Theorem C08_claim_phi_refuted : exists cx s s' d c,
  step cx s (OClaimReward c) = (s', OutTx COk d) /\ (exists po, pool s = Some po) /\
  forall coins, 0 <= coins -> phi s' <> phi s - dec_of_int coins.
Proof. apply claim_phi_refuted. Qed.
Print Assumptions C08_claim_phi_refuted.

Theorem C08_begin_block_mint_refuted : exists cx s s' d,
  step cx s OBeginBlock = (s', OutBlock BOk d) /\
  ~ exists m, 0 <= m /\ supply s' = supply s + m /\ m <= np_reward (nparams s).
Proof. apply begin_block_mint_refuted. Qed.
Print Assumptions C08_begin_block_mint_refuted.

(* sharper - a block mints at most the subsidy of the CURRENT halving age (BlockReward >> age) *)
Theorem C08_begin_block_mint_age : forall cx s s' d,
  0 <= np_reward (nparams s) ->
  (forall po, pool s = Some po -> po_reward po < TOTAL_REWARD) ->
  step cx s OBeginBlock = (s', OutBlock BOk d) ->
  0 <= supply s' - supply s <= subsidy_cap s.
Proof. apply begin_block_mint_age. Qed.
Print Assumptions C08_begin_block_mint_age.

(* and that subsidy never grows again *)
Theorem C08_begin_block_cap_decreases : forall cx s s' d,
  0 <= np_reward (nparams s) ->
  (forall po, pool s = Some po -> po_reward po < TOTAL_REWARD) ->
  (forall po', pool s' = Some po' -> po_reward po' < TOTAL_REWARD) ->
  step cx s OBeginBlock = (s', OutBlock BOk d) ->
  subsidy_cap s' <= subsidy_cap s.
Proof. apply begin_block_cap_decreases. Qed.
Print Assumptions C08_begin_block_cap_decreases.

Theorem C08_subsidy_cap_age1 :
  let po := mkPool 10 200000000000000 0 0 0 0 10 0 in
  halving_age po = 1 /\ Z.shiftr 1000 (halving_age po) = 500.
Proof. apply subsidy_cap_age1. Qed.
Print Assumptions C08_subsidy_cap_age1.
