(* C03 -- Crash-restart equivalence: all consensus state lives in the committed store.

   [restart] resets the only process-level variable ([pg] = sharesBeforeModified; the
   generated obligation mutable_globals_registered says it is the only one). Proved: only
   staking transactions and simulations touch it; every successful SDK-shaped staking
   transaction leaves it zero; with it zero, a restart at any point changes nothing in any
   later run. The full statement is refuted (finding D10): a delegation that fails between
   the two hooks, or a gas simulation of it, leaves the delegator's shares behind, and a
   restart then changes the next promotion decision. *)
From SaoVerif Require Import Base.Prelude Base.Ints Base.Dec Model.Did Model.Types Model.Monad Model.Bank Model.Select Model.Node Model.Storage Model.Sao Model.Hooks Model.App Model.Spec Proofs.Frame Proofs.HooksFacts.
From RecordUpdate Require Import RecordUpdate.
Import RecordSetNotations.

Theorem C03_pg_only_staking : forall cx s op, (forall evs, op <> OStaking evs) -> (forall evs, op <> OSimulate evs) ->
  (forall evs, op = OEndBlock evs -> evs = []) -> pg (fst (step cx s op)) = pg s.
Proof. apply pg_only_staking. Qed.
Print Assumptions C03_pg_only_staking.

Theorem C03_delegate_no_residue : forall cx s del val key existed amount v' d' s' d,
  step cx s (OStaking (ev_delegate del val key existed amount v' d')) = (s', OutTx COk d) -> pg s' = 0.
Proof. apply delegate_no_residue. Qed.
Print Assumptions C03_delegate_no_residue.

Theorem C03_unbond_partial_no_residue : forall cx s del val key d' v' s' d,
  step cx s (OStaking (ev_unbond_partial del val key d' v')) = (s', OutTx COk d) -> pg s' = 0.
Proof. apply unbond_partial_no_residue. Qed.
Print Assumptions C03_unbond_partial_no_residue.

Theorem C03_unbond_full_no_residue : forall cx s del val key v' s' d,
  step cx s (OStaking (ev_unbond_full del val key v')) = (s', OutTx COk d) -> pg s' = 0.
Proof. apply unbond_full_no_residue. Qed.
Print Assumptions C03_unbond_full_no_residue.

Theorem C03_restart_id : forall s, pg s = 0 -> restart s = s.
Proof. apply restart_id. Qed.
Print Assumptions C03_restart_id.

Theorem C03_restart_equiv : forall tr s, pg s = 0 -> run tr (restart s) = run tr s.
Proof. apply restart_equiv. Qed.
Print Assumptions C03_restart_equiv.

Theorem C03_failed_delegate_residue : forall cx s del val sh, del_shares s del val = Some sh ->
  fst (step cx s (OStaking (ev_delegate_fails del val))) = s <| pg := sh |>.
Proof. apply failed_delegate_residue. Qed.
Print Assumptions C03_failed_delegate_residue.

Theorem C03_simulate_residue : forall cx s del val sh, del_shares s del val = Some sh ->
  fst (step cx s (OSimulate (ev_delegate_fails del val))) = s <| pg := sh |>.
Proof. apply simulate_residue. Qed.
Print Assumptions C03_simulate_residue.

Theorem C03_restart_equiv_refuted : exists cx s op, pg s <> 0 /\ nodes (fst (step cx (restart s) op)) <> nodes (fst (step cx s op)).
Proof. apply restart_equiv_refuted. Qed.
Print Assumptions C03_restart_equiv_refuted.

Theorem C03_d10_crash_restart_divergence :
  let tr1 := [(d10_cx, OStaking (ev_delegate_fails "OP" "V"))] in
  let tr2 := [(d10_cx, OStaking d10_evs)] in
  pg (d10_state 0) = 0 /\
  n_role <$> nodes (run tr2 (run tr1 (d10_state 0))) !! "N" = Some 1 /\
  n_role <$> nodes (run tr2 (restart (run tr1 (d10_state 0)))) !! "N" = Some 0.
Proof. apply d10_crash_restart_divergence. Qed.
Print Assumptions C03_d10_crash_restart_divergence.

Theorem C03_step_keeps_staking : forall cx s op, no_staking op = true ->
  vals (fst (step cx s op)) = vals s /\ dels (fst (step cx s op)) = dels s /\ pg (fst (step cx s op)) = pg s.
Proof. apply step_keeps_staking. Qed.
Print Assumptions C03_step_keeps_staking.
