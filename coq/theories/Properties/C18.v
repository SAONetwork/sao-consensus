(* C18 -- Genesis export/import round trip preserves storage-module state.

   [export_import] (Model/Genesis.v) is the model of ExportGenesis followed by
   InitGenesis of the six storage modules; it is compared with the real application
   (ExportAppStateAndValidators, Validate, InitChain of a fresh app) at random block
   boundaries of the "genesis" histories, which then continue on the re-imported
   application. Which store prefixes have no genesis field is re-derived from the Go
   source on every run (Obligations/ObGenesis.v). *)
From SaoVerif Require Import Base.Prelude Base.Ints Base.Dec Model.Did Model.Types Model.Monad Model.Bank Model.Select
     Model.Node Model.Storage Model.Sao Model.Hooks Model.App Model.Spec Model.Genesis.
From RecordUpdate Require Import RecordUpdate.
Import RecordSetNotations.

(* the round trip is exact on everything the genesis files carry ... *)
Theorem C18_roundtrip_when_exported : forall s, unexported_empty s -> export_import s = s.
Proof.
  intros s (H1 & H2 & H3 & H4). destruct s. unfold export_import. cbn in *. subst. reflexivity.
Qed.
Print Assumptions C18_roundtrip_when_exported.

(* ... exporting again changes nothing more ... *)
Theorem C18_idempotent : forall s, export_import (export_import s) = export_import s.
Proof. intros s. destruct s. reflexivity. Qed.
Print Assumptions C18_idempotent.

(* ... and the re-initialised chain then behaves exactly as the original on every later
   sequence of blocks and transactions *)
Theorem C18_continuation : forall s tr, unexported_empty s -> run tr (export_import s) = run tr s.
Proof. intros s tr H. rewrite C18_roundtrip_when_exported by exact H. reflexivity. Qed.
Print Assumptions C18_continuation.

(* every table other than the four without a genesis field survives in any state *)
Theorem C18_exported_tables : forall s,
  let s' := export_import s in
  did s' = did s /\ nodes s' = nodes s /\ pledges s' = pledges s /\ debts s' = debts s /\ pool s' = pool s /\
  nparams s' = nparams s /\ orders s' = orders s /\ order_count s' = order_count s /\ shards s' = shards s /\
  shard_count s' = shard_count s /\ metas s' = metas s /\ models s' = models s /\ expdata s' = expdata s /\
  timeouts s' = timeouts s /\ expshards s' = expshards s /\ workers s' = workers s /\ bal s' = bal s /\ supply s' = supply s.
Proof. intros s. destruct s. cbn. repeat split. Qed.
Print Assumptions C18_exported_tables.

(* The full statement is refuted (finding D18): faults, fishing rewards and the super-node
   cursor are lost, and the cursor reset changes the next placement. *)
Definition d18_node (st role : Z) : Node := mkNode "" 10000 st 0 [] role "".
Definition d18_state : State :=
  mkState did_empty
    (list_to_map [("s1", d18_node 13 1); ("s2", d18_node 13 1)])
    (list_to_map [("s1", mkPledge 0 0 0 0 1000 0); ("s2", mkPledge 0 0 0 0 1000 0)])
    ∅ (Some (mkPool 0 0 0 0 0 0 2000 0)) (Some 1) ∅ ∅ ∅
    (mkNParams 1000 1000000000 500000000000000000 32000000 2000 100000000000000000 "" 1 10000 5000000 1800)
    ∅ 1 ∅ 0 ∅ ∅ ∅ ∅ ∅ ∅ ∅ 0 ∅ ∅ 0.
Definition d18_cx : Ctx := {| cx_height := 5; cx_chain := "c"; cx_time := 0; cx_seed := 7 |}.

Theorem C18_roundtrip_refuted : export_import d18_state <> d18_state.
Proof. intros H. apply (f_equal round) in H. vm_compute in H. discriminate. Qed.
Print Assumptions C18_roundtrip_refuted.

Theorem C18_continuation_refuted :
  exists sps1 sps2 s1 s2, random_sp_m d18_cx 1 [] 10 d18_state = Ok sps1 s1 /\
                          random_sp_m d18_cx 1 [] 10 (export_import d18_state) = Ok sps2 s2 /\ sps1 <> sps2.
Proof.
  (* only the lists are evaluated; the states the selection leaves stay [match]es on the runs *)
  pose (val := fun r : out (list string) => match r with Ok l _ => Some l | _ => None end).
  assert (E1 : val (random_sp_m d18_cx 1 [] 10 d18_state) = Some ["s2"]) by (vm_compute; reflexivity).
  assert (E2 : val (random_sp_m d18_cx 1 [] 10 (export_import d18_state)) = Some ["s1"]) by (vm_compute; reflexivity).
  destruct (random_sp_m d18_cx 1 [] 10 d18_state) as [l1 t1| | |]; try discriminate E1.
  destruct (random_sp_m d18_cx 1 [] 10 (export_import d18_state)) as [l2 t2| | |]; try discriminate E2.
  exists l1, l2, t1, t2. cbn in E1, E2. split; [reflexivity|]. split; [reflexivity|]. congruence.
Qed.
Print Assumptions C18_continuation_refuted.
