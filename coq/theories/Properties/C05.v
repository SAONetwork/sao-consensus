(* C05 -- Full refund and clean rollback when storage never started.

   Proved: the postcondition of CancelOrder (used by the Cancel message and by the timeout
   end-blocker): the payer gets back exactly the amount charged from the order escrow, the
   order disappears, no pledge, worker or debt changes, and the data model returns to its
   last committed version (status, commit, order lists, owner, grants, cid unchanged) or
   ceases to exist together with its alias when it had none; for the Cancel message also
   that every shard of the order disappears and no other shard changes; a pending order that
   times out is cancelled the same way (or nothing changes if the refund fails).
   History level (Proofs/MetaSched.v): after a rollback, as in every reachable state, the model is listed for
   removal exactly where its (restored) lifetime ends (run_meta_scheduled). *)
From SaoVerif Require Import Base.Prelude Base.Ints Base.Dec Model.Did Model.Types Model.Monad Model.Bank Model.Select Model.Node Model.Storage Model.Sao Model.Hooks Model.App Model.Spec Proofs.Money Proofs.MetaSched Proofs.DataSched.
From RecordUpdate Require Import RecordUpdate.
Import RecordSetNotations.

Theorem C05_cancel_order_post : forall cx oid s s' o payer, cancel_order cx oid s = Ok tt s' -> orders s !! oid = Some o ->
  pay_addr s (if String.eqb (o_paydid o) "" then o_owner o else o_paydid o) = Some payer -> payer <> macc ORDER ->
  balance s' payer = balance s payer + o_amount o /\ balance s' (macc ORDER) = balance s (macc ORDER) - o_amount o /\
  (forall a, a <> payer -> a <> macc ORDER -> bal s' !! a = bal s !! a) /\
  orders s' !! oid = None /\ (forall k, k <> oid -> orders s' !! k = orders s !! k) /\
  shards s' = shards s /\ pledges s' = pledges s /\ workers s' = workers s /\ debts s' = debts s /\ pool s' = pool s /\
  (forall k, k <> o_data o -> metas s' !! k = metas s !! k) /\
  match metas s !! o_data o with
  | None => metas s' = metas s /\ models s' = models s
  | Some em =>
      match last_opt (m_commits em) with
      | None => metas s' !! o_data o = None /\ models s' !! meta_key em = None   (* never committed: the model and its alias cease to exist *)
      | Some lastv => exists em', metas s' !! o_data o = Some em' /\ m_status em' = MetaComplete /\
                        m_commit em' = commit_of_version lastv /\ m_commits em' = m_commits em /\ m_orders em' = m_orders em /\
                        m_owner em' = m_owner em /\ m_rw em' = m_rw em /\ m_ro em' = m_ro em /\ m_cid em' = m_cid em /\
                        models s' = models s
      end
  end.
Proof. apply cancel_order_post. Qed.
Print Assumptions C05_cancel_order_post.

Theorem C05_cancel_msg_post : forall cx s c p oid s' d o, step cx s (OCancel c p oid) = (s', OutTx COk d) -> orders s !! oid = Some o ->
  (forall id sh, In id (o_shards o) -> shards s !! id = Some sh -> sh_status sh <> ShardCompleted) ->
  orders s' !! oid = None /\ (forall id, In id (o_shards o) -> shards s' !! id = None) /\
  (forall id, ~ In id (o_shards o) -> shards s' !! id = shards s !! id) /\
  pledges s' = pledges s /\ workers s' = workers s /\ debts s' = debts s /\
  exists payer, pay_addr s (if String.eqb (o_paydid o) "" then o_owner o else o_paydid o) = Some payer /\
    (payer <> macc ORDER -> balance s' payer = balance s payer + o_amount o).
Proof. apply cancel_msg_post. Qed.
Print Assumptions C05_cancel_msg_post.

Theorem C05_timeout_pending_cancels_exact : forall cx oid s s' o, handle_timeout_order cx oid s = Ok tt s' -> orders s !! oid = Some o ->
  o_status o = OrderPending -> cancel_order cx oid s = Ok tt s' \/ (cancel_order cx oid s = Err "RefundOrder" s /\ s' = s).
Proof. apply timeout_pending_cancels_exact. Qed.
Print Assumptions C05_timeout_pending_cancels_exact.

(* in every reachable state every data model is listed for removal exactly where its lifetime ends *)
Theorem C05_run_meta_scheduled : forall tr s,
  Forall (fun co : Ctx * Op => height_ok co.1) tr -> Inv_msched s -> Inv_msched (run tr s).
Proof. apply run_meta_scheduled. Qed.
Print Assumptions C05_run_meta_scheduled.

(* ... exactly once and the schedule lists nothing else - a rollback or removal leaves no stale entry behind *)
Theorem C05_run_data_schedule : forall tr s,
  Forall (fun co : Ctx * Op => height_ok co.1) tr -> Inv_ds s -> Inv_ds (run tr s).
Proof. apply run_data_schedule. Qed.
Print Assumptions C05_run_data_schedule.

Theorem C05_scheduled_entry_is_live : forall tr s h l d,
  Forall (fun co : Ctx * Op => height_ok co.1) tr -> Inv_ds s ->
  expdata (run tr s) !! h = Some l -> In d l -> exists m, metas (run tr s) !! d = Some m /\ expiry m = h.
Proof. apply scheduled_entry_is_live. Qed.
Print Assumptions C05_scheduled_entry_is_live.
