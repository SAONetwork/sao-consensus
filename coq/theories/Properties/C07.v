(* C07 -- Provider collateral safety: pledged funds return to the pledger, in full.

   Proved per operation: releasing a shard pays its recorded collateral, less only the debt
   recorded against that provider (and repaid by exactly that much), from the node escrow to
   the shard's provider and to nobody else, and lowers that provider's counters by the
   shard's collateral and size; RemoveVstorage is accepted only for capacity not backing
   stored shards and pays the signer only; AddVstorage takes exactly the coins it books.
   0 <= used <= total and used = sum of live shard sizes are preserved by every covered operation
   (step_capacity_partial, Proofs/Capacity.v; hypotheses and uncovered operations as in C14) and
   monitored on implementation states after every step (agg.used_is_sum, agg.used_bounds,
   agg.shpledged_is_sum). *)
From SaoVerif Require Import Base.Prelude Base.Ints Base.Dec Model.Did Model.Types Model.Monad Model.Bank Model.Select Model.Node Model.Storage Model.Sao Model.Hooks Model.App Model.Spec Proofs.Money Model.Inv Proofs.RefInt Proofs.Capacity Proofs.Collateral.
From RecordUpdate Require Import RecordUpdate.
Import RecordSetNotations.

Theorem C07_shard_release_pays_owner : forall sp sh s s' p, shard_release sp (Some sh) s = Ok tt s' -> sh_sp sh = sp ->
  pledges s !! sp = Some p -> sp <> macc NODE -> 0 <= sh_pledge sh ->
  (forall dbt, debts s !! sp = Some dbt -> 0 <= dbt) ->
  exists repaid p', 0 <= repaid /\ repaid <= sh_pledge sh /\ repaid <= default 0 (debts s !! sp) /\
    balance s' sp = balance s sp + (sh_pledge sh - repaid) /\
    balance s' (macc NODE) = balance s (macc NODE) - (sh_pledge sh - repaid) /\
    default 0 (debts s' !! sp) = default 0 (debts s !! sp) - repaid /\
    (forall a, a <> sp -> a <> macc NODE -> bal s' !! a = bal s !! a) /\
    pledges s' !! sp = Some p' /\ pl_shpledged p' = pl_shpledged p - sh_pledge sh /\
    pl_used p' = i64 (pl_used p - i64 (sh_size sh)) /\ pl_total p' = pl_total p /\ pl_spledged p' = pl_spledged p /\
    (forall k, k <> sp -> pledges s' !! k = pledges s !! k).
Proof. apply shard_release_pays_owner. Qed.
Print Assumptions C07_shard_release_pays_owner.

Theorem C07_remove_vstorage_guard : forall cx s c sz s' d, step cx s (ORemoveVstorage c sz) = (s', OutTx COk d) ->
  exists p p' amount, pledges s !! c = Some p /\ pledges s' !! c = Some p' /\ 0 < amount /\
    amount * 1000000 <= pl_total p - pl_used p /\            (* never capacity that backs stored shards *)
    pl_total p' = pl_total p - amount * 1000000 /\ pl_used p' = pl_used p /\ pl_spledged p' = pl_spledged p - amount /\
    (c <> macc NODE -> balance s' c = balance s c + amount /\ balance s' (macc NODE) = balance s (macc NODE) - amount) /\
    (forall a, a <> c -> a <> macc NODE -> bal s' !! a = bal s !! a).
Proof. apply remove_vstorage_guard. Qed.
Print Assumptions C07_remove_vstorage_guard.

Theorem C07_add_vstorage_takes : forall cx s c sz s' d, step cx s (OAddVstorage c sz) = (s', OutTx COk d) ->
  exists amount p', 0 < amount /\ pledges s' !! c = Some p' /\
    pl_total p' = match pledges s !! c with Some p => pl_total p | None => 0 end + amount * 1000000 /\
    pl_spledged p' = match pledges s !! c with Some p => pl_spledged p | None => 0 end + amount /\
    (c <> macc NODE -> balance s' c = balance s c - amount /\ balance s' (macc NODE) = balance s (macc NODE) + amount).
Proof. apply add_vstorage_takes. Qed.
Print Assumptions C07_add_vstorage_takes.

(* what is taken for a shard is what is recorded for it - or the shortfall is recorded as debt *)
Theorem C07_shard_pledge_takes : forall id sh price s sh' s' p,
  shard_pledge id sh price s = Ok sh' s' -> pledges s !! sh_sp sh = Some p -> sh_sp sh <> macc NODE ->
  exists taken p',
    0 <= taken /\ taken <= sh_pledge sh' /\
    balance s' (sh_sp sh) = balance s (sh_sp sh) - taken /\
    balance s' (macc NODE) = balance s (macc NODE) + taken /\
    default 0 (debts s' !! sh_sp sh) = default 0 (debts s !! sh_sp sh) + (sh_pledge sh' - taken) /\
    (sh_renew sh = [] -> taken = sh_pledge sh') /\
    (forall a, a <> sh_sp sh -> a <> macc NODE -> bal s' !! a = bal s !! a) /\
    (forall k, k <> sh_sp sh -> debts s' !! k = debts s !! k) /\
    pledges s' !! sh_sp sh = Some p' /\ pl_shpledged p' = pl_shpledged p + sh_pledge sh' /\
    pl_total p' = pl_total p /\ pl_spledged p' = pl_spledged p /\
    (forall k, k <> sh_sp sh -> pledges s' !! k = pledges s !! k) /\
    shards s' !! id = Some sh' /\ sh' = sh <| sh_pledge := sh_pledge sh' |>.
Proof. apply shard_pledge_takes. Qed.
Print Assumptions C07_shard_pledge_takes.

Theorem C07_collateral_nonvacuous :
  exists sh, shards W.s2 !! 1 = Some sh /\ 0 < sh_pledge sh /\
    balance W.s2 "T" = balance W.s1 "T" - sh_pledge sh /\
    balance W.s2 (macc NODE) = balance W.s1 (macc NODE) + sh_pledge sh.
Proof. apply collateral_nonvacuous. Qed.
Print Assumptions C07_collateral_nonvacuous.

(* 0 <= used <= total is kept by every covered operation *)
Theorem C07_step_capacity_partial : forall cx s op,
  covered op = true -> Hyp cx s op -> Inv_used s -> Inv_capacity s -> Live_pledged s ->
  Inv_capacity (fst (step cx s op)).
Proof. apply step_capacity_partial. Qed.
Print Assumptions C07_step_capacity_partial.
