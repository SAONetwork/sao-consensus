(* C01 -- Replica determinism: same blocks give same results on every node.

   The model's transition [step cx s op] is a Gallina function of the block context (height,
   chain id, block time, seed = previous app hash), the state and the operation: it has no
   wall-clock, randomness, map-order or scheduling input, so two replicas running the MODEL
   agree by construction. What carries content is that the CODE has no other input either:
   (1) generated obligations (Obligations/ObAmbient.v, re-derived from the Go source on every
       run): the only wall-clock read in consensus-reachable code is the telemetry one, there is
       no randomness, goroutine, select, environment read or receiver-field write, the map ranges
       are exactly the registered ones, the only package-level variable written is
       sharesBeforeModified;
   (2) the map ranges are order-insensitive (theorems below);
   (3) a failed or non-consensus call leaves nothing behind except that variable (theorems
       below; the residue is finding D10, refuted below and listed in KNOWN_FINDINGS.txt);
   (4) the step-wise correspondence of the model with the real application on every sampled
       history, and the twin-replica test: a second process replays the recorded consensus
       inputs under a different schedule of Simulate / CheckTx / query calls, in-process
       restarts and delays, and must reproduce every DeliverTx result (code, data, gas,
       events), every EndBlock response and every commit hash.
   Gas, events and the IAVL hash are not in the model: their equality is carried by (4) only. *)
From SaoVerif Require Import Base.Prelude Base.Ints Base.Dec Model.Did Model.Types Model.Monad Model.Bank Model.Select Model.Node Model.Storage Model.Sao Model.Hooks Model.App Model.Spec Proofs.Frame Proofs.HooksFacts.
From RecordUpdate Require Import RecordUpdate.
Import RecordSetNotations.

Theorem C01_remove_shards_perm : forall l l' , Permutation l l' -> forall s, remove_shards l s = remove_shards l' s.
Proof. apply remove_shards_perm. Qed.
Print Assumptions C01_remove_shards_perm.

Theorem C01_remove_shards_dedup : forall l s, remove_shards (dedupZ l) s = remove_shards l s.
Proof. apply remove_shards_dedup. Qed.
Print Assumptions C01_remove_shards_dedup.

Theorem C01_pg_only_staking : forall cx s op, (forall evs, op <> OStaking evs) -> (forall evs, op <> OSimulate evs) ->
  (forall evs, op = OEndBlock evs -> evs = []) -> pg (fst (step cx s op)) = pg s.
Proof. apply pg_only_staking. Qed.
Print Assumptions C01_pg_only_staking.

Theorem C01_restart_equiv : forall tr s, pg s = 0 -> run tr (restart s) = run tr s.
Proof. apply restart_equiv. Qed.
Print Assumptions C01_restart_equiv.

Theorem C01_failed_delegate_residue : forall cx s del val sh, del_shares s del val = Some sh ->
  fst (step cx s (OStaking (ev_delegate_fails del val))) = s <| pg := sh |>.
Proof. apply failed_delegate_residue. Qed.
Print Assumptions C01_failed_delegate_residue.

Theorem C01_simulate_residue : forall cx s del val sh, del_shares s del val = Some sh ->
  fst (step cx s (OSimulate (ev_delegate_fails del val))) = s <| pg := sh |>.
Proof. apply simulate_residue. Qed.
Print Assumptions C01_simulate_residue.

Theorem C01_restart_equiv_refuted : exists cx s op, pg s <> 0 /\ nodes (fst (step cx (restart s) op)) <> nodes (fst (step cx s op)).
Proof. apply restart_equiv_refuted. Qed.
Print Assumptions C01_restart_equiv_refuted.

Theorem C01_d10_crash_restart_divergence :
  let tr1 := [(d10_cx, OStaking (ev_delegate_fails "OP" "V"))] in
  let tr2 := [(d10_cx, OStaking d10_evs)] in
  pg (d10_state 0) = 0 /\
  n_role <$> nodes (run tr2 (run tr1 (d10_state 0))) !! "N" = Some 1 /\
  n_role <$> nodes (run tr2 (restart (run tr1 (d10_state 0)))) !! "N" = Some 0.
Proof. apply d10_crash_restart_divergence. Qed.
Print Assumptions C01_d10_crash_restart_divergence.

Theorem C01_step_keeps_nparams : forall cx s op, nparams (fst (step cx s op)) = nparams s.
Proof. apply step_keeps_nparams. Qed.
Print Assumptions C01_step_keeps_nparams.

Theorem C01_step_keeps_did : forall cx s op, (forall o, op <> ODid o) -> did (fst (step cx s op)) = did s.
Proof. apply step_keeps_did. Qed.
Print Assumptions C01_step_keeps_did.
