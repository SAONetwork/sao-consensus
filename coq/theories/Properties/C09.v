(* C09 -- Data-model authorization: only owner- or grantee-signed requests change a model.

   [signed_by] and [key_of] (Model/Spec.v) say, without reference to the handler code, that
   a request verifies over exactly its delivered bytes under a key of the DID it names: the
   key a did:key encodes, or a key of a document in that sid DID's OWN version history.
   Proved: signature verification is sound for that specification; a rejected transaction
   changes no model; operations other than Store / Complete / Cancel / Renew / Terminate /
   UpdatePermission / EndBlock change no model at all; an accepted Store, Terminate or
   UpdatePermission is signed by the DID it names and that DID is the owner (for content
   updates and termination: or a read-write grantee); each touches only the model it names;
   Complete and Cancel touch only the model of their order. For Renew the same holds under
   the link "a model's latest order names that model" (meta_order_link; the plain statement
   is refuted on an ill-formed hand-built state, see renew_authorized_refuted).
   The same clauses are evaluated as per-operation monitors on every accepted request of the
   implementation (authz.store, authz.renew, authz.terminate, authz.permission, frame.models). *)
From SaoVerif Require Import Base.Prelude Base.Ints Base.Dec Model.Did Model.Types Model.Monad Model.Bank Model.Select Model.Node Model.Storage Model.Sao Model.Hooks Model.App Model.Spec Proofs.Authz.
From RecordUpdate Require Import RecordUpdate.
Import RecordSetNotations.

Theorem C09_verify_sig_sound : forall s owner so d,
  sig_sane owner so -> verify_sig s owner so = Some d -> d = owner /\ signed_by s owner so.
Proof. apply verify_sig_sound. Qed.
Print Assumptions C09_verify_sig_sound.

Theorem C09_rejected_tx_unchanged : forall cx s op s' c d,
  is_tx op = true -> step cx s op = (s', OutTx c d) -> c <> COk -> model_view s' = model_view s.
Proof. apply rejected_tx_unchanged. Qed.
Print Assumptions C09_rejected_tx_unchanged.

Theorem C09_model_frame : forall cx s op, touches_models op = false -> model_view (fst (step cx s op)) = model_view s.
Proof. apply model_frame. Qed.
Print Assumptions C09_model_frame.

Theorem C09_store_authorized : forall cx s m s' d,
  sig_sane (st_owner m) (st_sig m) -> step cx s (OStore m) = (s', OutTx COk d) ->
  signed_by s (st_owner m) (st_sig m) /\ (forall em, metas s !! st_data m = Some em -> may_write em (st_owner m)).
Proof. apply store_authorized. Qed.
Print Assumptions C09_store_authorized.

Theorem C09_store_touches_only_its_model : forall cx s m s' d k,
  step cx s (OStore m) = (s', OutTx COk d) -> k <> st_data m -> metas s' !! k = metas s !! k.
Proof. apply store_touches_only_its_model. Qed.
Print Assumptions C09_store_touches_only_its_model.

Theorem C09_terminate_authorized : forall cx s c p owner data sg s' d,
  sig_sane owner sg -> step cx s (OTerminate c p owner data sg) = (s', OutTx COk d) ->
  signed_by s owner sg /\ exists em, metas s !! data = Some em /\ may_write em owner.
Proof. apply terminate_authorized. Qed.
Print Assumptions C09_terminate_authorized.

Theorem C09_permission_authorized : forall cx s c p owner data ro rw sg v s' d,
  sig_sane owner sg -> step cx s (OUpdatePermission c p owner data ro rw sg v) = (s', OutTx COk d) ->
  signed_by s owner sg /\ exists em, metas s !! data = Some em /\ may_admin em owner /\
  (forall k, k <> data -> metas s' !! k = metas s !! k).
Proof. apply permission_authorized. Qed.
Print Assumptions C09_permission_authorized.

Theorem C09_renew_authorized_partial : forall cx s m s' d data em,
  sig_sane (rn_owner m) (rn_sig m) -> meta_order_link s ->
  step cx s (ORenew m) = (s', OutTx COk d) ->
  metas s !! data = Some em -> metas s' !! data <> Some em ->
  signed_by s (rn_owner m) (rn_sig m) /\ may_admin em (rn_owner m) /\ In data (rn_data m).
Proof. apply renew_authorized_partial. Qed.
Print Assumptions C09_renew_authorized_partial.

Theorem C09_renew_authorized_refuted : exists cx s m s' d data em,
  sig_sane (rn_owner m) (rn_sig m) /\ step cx s (ORenew m) = (s', OutTx COk d) /\
  metas s !! data = Some em /\ metas s' !! data <> Some em /\
  ~ may_admin em (rn_owner m) /\ ~ In data (rn_data m).
Proof. apply renew_authorized_refuted. Qed.
Print Assumptions C09_renew_authorized_refuted.

Theorem C09_complete_touches_only_order_model : forall cx s c p oid cid sz ok s' d o k,
  step cx s (OComplete c p oid cid sz ok) = (s', OutTx COk d) ->
  orders s !! oid = Some o -> k <> o_data o -> metas s' !! k = metas s !! k.
Proof. apply complete_touches_only_order_model. Qed.
Print Assumptions C09_complete_touches_only_order_model.

Theorem C09_cancel_touches_only_order_model : forall cx s c p oid s' d o k,
  step cx s (OCancel c p oid) = (s', OutTx COk d) ->
  orders s !! oid = Some o -> k <> o_data o -> metas s' !! k = metas s !! k.
Proof. apply cancel_touches_only_order_model. Qed.
Print Assumptions C09_cancel_touches_only_order_model.
