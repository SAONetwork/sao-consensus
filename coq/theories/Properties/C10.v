(* C10 -- Actor authorization: providers, nodes, payers, creators act only for themselves.

   Proved: an accepted Complete comes from the provider the shard is assigned to or an
   address that provider registered, and completes a shard assigned to it; an accepted
   Cancel comes from the order's creator, or through the order's OWN gateway from an address
   it registered, for an order created by an address that gateway registered; node messages
   leave every other account's node, pledge and balance untouched; in an accepted Store the
   only account whose balance goes down is the owner DID's payment address (and then the
   submitter is bound to the owner or acts for the gateway the request names) or the
   sponsor's own address (and then the sponsor itself submitted it).
   Renewals: the payer used to be the payment address of the DID that placed the model's latest
   order (finding D20, repaired in /repo by the fix commit "a renewal order belongs to the
   model owner who signed it"); renew_payer_witness shows the repaired behaviour on the state
   that refuted the clause; the general clause is monitored (authz.renew_payer). *)
From SaoVerif Require Import Base.Prelude Base.Ints Base.Dec Model.Did Model.Types Model.Monad Model.Bank Model.Select Model.Node Model.Storage Model.Sao Model.Hooks Model.App Model.Spec Proofs.Authz.
From RecordUpdate Require Import RecordUpdate.
Import RecordSetNotations.

Theorem C10_complete_actor : forall cx s c p oid cid sz ok s' d,
  step cx s (OComplete c p oid cid sz ok) = (s', OutTx COk d) ->
  acts_for s c p = true /\ exists o sid sh, orders s !! oid = Some o /\ shard_by_sp s o p = Some (sid, sh) /\ sh_sp sh = p.
Proof. apply complete_actor. Qed.
Print Assumptions C10_complete_actor.

Theorem C10_cancel_actor : forall cx s c p oid s' d,
  step cx s (OCancel c p oid) = (s', OutTx COk d) ->
  exists o, orders s !! oid = Some o /\ o_status o <> OrderCompleted /\ acts_for s c p = true /\
    (o_creator o = c \/ (p = o_provider o /\ exists n, nodes s !! o_provider o = Some n /\ In (o_creator o) (n_tx n))).
Proof. apply cancel_actor. Qed.
Print Assumptions C10_cancel_actor.

Theorem C10_node_msgs_frame : forall cx s op c k, node_op_signer op = Some c -> k <> c ->
  nodes (fst (step cx s op)) !! k = nodes s !! k /\ pledges (fst (step cx s op)) !! k = pledges s !! k /\
  (k <> macc NODE -> k <> macc MARKET -> bal (fst (step cx s op)) !! k = bal s !! k).
Proof. apply node_msgs_frame. Qed.
Print Assumptions C10_node_msgs_frame.

Theorem C10_store_payer : forall cx s m s' d a, step cx s (OStore m) = (s', OutTx COk d) -> balance s' a < balance s a ->
  (st_paydid m = "" /\ pay_addr s (st_owner m) = Some a /\
     (creator_bound_s cx s (st_creator m) (st_owner m) = true \/
      (st_pprovider m = st_creator m /\ st_provider m = st_creator m) \/
      (st_pprovider m = st_provider m /\ exists n, nodes s !! st_provider m = Some n /\ In (st_creator m) (n_tx n)))) \/
  (st_paydid m <> "" /\ pay_addr s (st_paydid m) = Some a /\ a = st_creator m).
Proof. apply store_payer. Qed.
Print Assumptions C10_store_payer.

Theorem C10_renew_payer_witness :
  let s := Witness.s1 in let m := Witness.rn1 in let s' := fst (step Witness.cx s (ORenew m)) in
  sig_sane (rn_owner m) (rn_sig m) /\ verify_sig s (rn_owner m) (rn_sig m) = Some (rn_owner m) /\
  snd (step Witness.cx s (ORenew m)) = OutTx COk "" /\
  pay_addr s (rn_owner m) = Some "ownerAddr" /\
  balance s "ownerAddr" = 100 /\ balance s' "ownerAddr" = 99 /\
  balance s "granteeAddr" = 100 /\ balance s' "granteeAddr" = 100 /\
  (exists em', metas s' !! "11111111-1111-1111-1111-111111111111" = Some em' /\ m_orders em' = [0; 1] /\ m_order em' = 1).
Proof. apply renew_payer_witness. Qed.
Print Assumptions C10_renew_payer_witness.
