(* C04 -- Order payment conservation: charged once, paid out only as income or refund.

   Proved per operation: an accepted Store charges exactly one account exactly the quoted
   price (ceil of 10^-6 x size x replicas x duration) into the order escrow and nothing else
   moves; the first completion moves exactly that amount to the market escrow (for updates
   that are not force-pushes; a force-push also settles the replaced order in the same
   transaction -- first_complete_deposits_refuted shows the plain statement false there);
   a cancellation refunds exactly the amount charged; coins are created only by the block
   reward and all other operations conserve the sum of balances (C06/C08 files).
   NOT proved: the history-level equation income + refunds = charged for every way an order
   ends. It is evaluated as monitors on the implementation (cons.market_no_orphan,
   solv.market, solv.order) at every block boundary of every history. *)
From SaoVerif Require Import Base.Prelude Base.Ints Base.Dec Model.Did Model.Types Model.Monad Model.Bank Model.Select Model.Node Model.Storage Model.Sao Model.Hooks Model.App Model.Spec Proofs.Frame Proofs.Money.
From RecordUpdate Require Import RecordUpdate.
Import RecordSetNotations.

Theorem C04_store_charges_quote_core : forall cx s m s' d, step cx s (OStore m) = (s', OutTx COk d) ->
  exists payer oid o, (exists x, pay_addr s x = Some payer) /\ orders s' !! oid = Some o /\ oid = order_count s /\
    o_amount o = quote (if st_size m =? 0 then 1 else st_size m) (st_replica m) (st_duration m) /\ 0 < o_amount o /\
    o_amount o <= balance s payer /\
    (payer <> macc ORDER ->
     balance s' payer = balance s payer - o_amount o /\ balance s' (macc ORDER) = balance s (macc ORDER) + o_amount o) /\
    (payer = macc ORDER -> forall a, balance s' a = balance s a) /\
    (forall a, a <> payer -> a <> macc ORDER -> bal s' !! a = bal s !! a) /\
    (forall k, k <> oid -> orders s' !! k = orders s !! k).
Proof. apply store_charges_quote_core. Qed.
Print Assumptions C04_store_charges_quote_core.

Theorem C04_store_charges_quote_partial : forall cx s m s' d, step cx s (OStore m) = (s', OutTx COk d) ->
  pay_not_escrow s -> orders s !! order_count s = None ->
  exists payer oid o, orders s !! oid = None /\ orders s' !! oid = Some o /\ oid = order_count s /\
    o_amount o = quote (if st_size m =? 0 then 1 else st_size m) (st_replica m) (st_duration m) /\ 0 < o_amount o /\
    payer <> macc ORDER /\
    balance s' payer = balance s payer - o_amount o /\ balance s' (macc ORDER) = balance s (macc ORDER) + o_amount o /\
    (forall a, a <> payer -> a <> macc ORDER -> bal s' !! a = bal s !! a).
Proof. apply store_charges_quote_partial. Qed.
Print Assumptions C04_store_charges_quote_partial.

Theorem C04_first_complete_deposits_partial : forall cx s c p oid cid sz ok s' d o, step cx s (OComplete c p oid cid sz ok) = (s', OutTx COk d) ->
  orders s !! oid = Some o -> o_status o <> OrderCompleted ->
  (forall sid sh, shard_by_sp s o p = Some (sid, sh) -> sh_status sh = ShardWaiting) ->
  o_op o <> 2 -> p <> macc ORDER -> p <> macc MARKET ->
  balance s' (macc ORDER) = balance s (macc ORDER) - o_amount o /\ balance s' (macc MARKET) = balance s (macc MARKET) + o_amount o.
Proof. apply first_complete_deposits_partial. Qed.
Print Assumptions C04_first_complete_deposits_partial.

Theorem C04_first_complete_deposits_refuted :
  exists cx s c p oid cid sz ok s' d o, step cx s (OComplete c p oid cid sz ok) = (s', OutTx COk d) /\
    orders s !! oid = Some o /\ o_status o <> OrderCompleted /\
    (forall sid sh, shard_by_sp s o p = Some (sid, sh) -> sh_status sh = ShardWaiting) /\
    p <> macc ORDER /\ p <> macc MARKET /\
    ~ (balance s' (macc ORDER) = balance s (macc ORDER) - o_amount o /\ balance s' (macc MARKET) = balance s (macc MARKET) + o_amount o).
Proof. apply first_complete_deposits_refuted. Qed.
Print Assumptions C04_first_complete_deposits_refuted.

Theorem C04_cancel_order_post : forall cx oid s s' o payer, cancel_order cx oid s = Ok tt s' -> orders s !! oid = Some o ->
  pay_addr s (if String.eqb (o_paydid o) "" then o_owner o else o_paydid o) = Some payer -> payer <> macc ORDER ->
  balance s' payer = balance s payer + o_amount o /\ balance s' (macc ORDER) = balance s (macc ORDER) - o_amount o /\
  (forall a, a <> payer -> a <> macc ORDER -> bal s' !! a = bal s !! a) /\
  orders s' !! oid = None /\ (forall k, k <> oid -> orders s' !! k = orders s !! k) /\
  shards s' = shards s /\ pledges s' = pledges s /\ workers s' = workers s /\ debts s' = debts s /\ pool s' = pool s /\
  (forall k, k <> o_data o -> metas s' !! k = metas s !! k) /\
  match metas s !! o_data o with
  | None => metas s' = metas s /\ models s' = models s
  | Some em =>
      match last_opt (m_commits em) with
      | None => metas s' !! o_data o = None /\ models s' !! meta_key em = None   (* never committed: the model and its alias cease to exist *)
      | Some lastv => exists em', metas s' !! o_data o = Some em' /\ m_status em' = MetaComplete /\
                        m_commit em' = commit_of_version lastv /\ m_commits em' = m_commits em /\ m_orders em' = m_orders em /\
                        m_owner em' = m_owner em /\ m_rw em' = m_rw em /\ m_ro em' = m_ro em /\ m_cid em' = m_cid em /\
                        models s' = models s
      end
  end.
Proof. apply cancel_order_post. Qed.
Print Assumptions C04_cancel_order_post.

Theorem C04_step_conserves : forall cx s op, no_staking op = true ->
  sum_bal (fst (step cx s op)) - sum_bal s = supply (fst (step cx s op)) - supply s.
Proof. apply step_conserves. Qed.
Print Assumptions C04_step_conserves.

Theorem C04_step_supply : forall cx s op, op <> OBeginBlock -> supply (fst (step cx s op)) = supply s.
Proof. apply step_supply. Qed.
Print Assumptions C04_step_supply.
