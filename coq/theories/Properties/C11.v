(* C11 -- Retention and expiry: data stays for the paid term, released exactly once.

   Per-operation theorems about the model of Complete, the shard-expiry end-blocker and the
   timeout end-blocker (Model/Sao.v), tied to x/sao by the step-wise correspondence check on
   histories that cross every scheduled height. The history-level invariants (every
   completed shard is scheduled at the end of its period, every model is scheduled and its
   expiry covers its shards, nothing stale is scheduled, all scheduled heights are in the
   future at block boundaries) are evaluated as monitors on the implementation's state after
   every step (Model/Monitors.v: ref.completed_scheduled, sched.x clauses); they are not proved as
   global invariants of the model -- with one exception, proved in Proofs/MetaSched.v by induction over
   the operation list: in every state reachable at heights below 2^63 every data model is listed for
   removal at exactly the height its lifetime ends (run_meta_scheduled; step_meta_scheduled for one
   operation, error returns of block phases included), so the model end blocker finds every expiring
   model in its list (expiring_model_is_listed).
   Finding D22 (confirmed on the real code and repaired, see KNOWN_FINDINGS.txt): a force-push
   leaves the model with expiry height 0, so the model outlives all of its shards. *)
From SaoVerif Require Import Base.Prelude Base.Ints Base.Dec Model.Did Model.Types Model.Monad Model.Bank Model.Select Model.Node Model.Storage Model.Sao Model.Hooks Model.App Model.Spec Proofs.Schedule Proofs.RefInt Proofs.History Proofs.MetaSched Proofs.DataSched.
From RecordUpdate Require Import RecordUpdate.
Import RecordSetNotations.

Theorem C11_complete_schedules : forall cx s c p oid cid sz ok s' d, step cx s (OComplete c p oid cid sz ok) = (s', OutTx COk d) ->
  exists sid sh', shards s' !! sid = Some sh' /\ sh_sp sh' = p /\ sh_status sh' = ShardCompleted /\ sh_created sh' = cx_height cx /\
    In sid (default [] (expshards s' !! u64 (sh_created sh' + sh_duration sh'))) /\
    (forall o sh0, orders s !! oid = Some o -> shard_by_sp s o p = Some (sid, sh0) -> sh_status sh0 = ShardWaiting -> sh_duration sh' = o_duration o).
Proof. apply complete_schedules. Qed.
Print Assumptions C11_complete_schedules.

Theorem C11_end_block_releases_only_scheduled : forall cx s evs sid sh,
  shards s !! sid = Some sh -> sh_status sh = ShardCompleted -> shards (fst (step cx s (OEndBlock evs))) !! sid = None ->
  In sid (default [] (expshards s !! cx_height cx)) \/
  (exists oid, In oid (default [] (timeouts s !! cx_height cx))).
Proof. apply end_block_releases_only_scheduled. Qed.
Print Assumptions C11_end_block_releases_only_scheduled.

Theorem C11_end_block_releases_only_scheduled_strong : forall cx s evs sid sh,
  (forall oid, In oid (default [] (timeouts s !! cx_height cx)) -> fully_stored s oid) ->
  shards s !! sid = Some sh -> shards (fst (step cx s (OEndBlock evs))) !! sid = None ->
  In sid (default [] (expshards s !! cx_height cx)).
Proof. apply end_block_releases_only_scheduled_strong. Qed.
Print Assumptions C11_end_block_releases_only_scheduled_strong.

Theorem C11_expired_shard_post : forall cx sid s s' sh o, handle_expired_shard cx sid s = Ok tt s' ->
  shards s !! sid = Some sh -> orders s !! sh_order sh = Some o ->
  match sh_renew sh with
  | [] => shards s' !! sid = None
  | ri :: rest => exists sh', shards s' !! sid = Some sh' /\ sh_order sh' = ri_order ri /\ sh_created sh' = cx_height cx /\
                    sh_duration sh' = ri_duration ri /\ sh_renew sh' = rest /\ sh_sp sh' = sh_sp sh /\ sh_pledge sh' = sh_pledge sh /\
                    In sid (default [] (expshards s' !! u64 (cx_height cx + ri_duration ri)))
  end /\
  (forall k, k <> sid -> shards s' !! k = shards s !! k) /\
  (* the order loses the shard; it disappears with its last shard *)
  match o_shards o with
  | [x] => if x =? sid then orders s' !! sh_order sh = None else orders s' !! sh_order sh = Some o
  | l => exists o', orders s' !! sh_order sh = Some o' /\ o_shards o' = remove_firstZ sid l
  end.
Proof. apply expired_shard_post. Qed.
Print Assumptions C11_expired_shard_post.

(* every data model is listed for removal exactly where its lifetime ends - one operation *)
Theorem C11_step_meta_scheduled : forall cx s op, height_ok cx -> Inv_msched s -> Inv_msched (fst (step cx s op)).
Proof. apply step_meta_scheduled. Qed.
Print Assumptions C11_step_meta_scheduled.

(* ... and every history *)
Theorem C11_run_meta_scheduled : forall tr s,
  Forall (fun co : Ctx * Op => height_ok co.1) tr -> Inv_msched s -> Inv_msched (run tr s).
Proof. apply run_meta_scheduled. Qed.
Print Assumptions C11_run_meta_scheduled.

Theorem C11_expiring_model_is_listed : forall tr s cx d m,
  Forall (fun co : Ctx * Op => height_ok co.1) tr -> Inv_msched s ->
  metas (run tr s) !! d = Some m -> expiry m = cx_height cx ->
  exists l, expdata (run tr s) !! cx_height cx = Some l /\ In d l.
Proof. apply expiring_model_is_listed. Qed.
Print Assumptions C11_expiring_model_is_listed.

Theorem C11_meta_scheduled_nonvacuous :
  Inv_msched W.s2 /\ (exists m, metas W.s2 !! W.data = Some m /\ expiry m = 3606 /\ expdata W.s2 !! 3606 = Some [W.data]) /\
  Forall (fun co : Ctx * Op => height_ok co.1) History.hist_run /\
  match metas (run History.hist_run W.s2) !! W.data with Some m => expiry m | None => 0 end = 3610.
Proof. apply meta_scheduled_nonvacuous. Qed.
Print Assumptions C11_meta_scheduled_nonvacuous.

(* the full invariant of the data-expiry schedule - listed exactly once and nothing stale or duplicated - one operation *)
Theorem C11_step_data_schedule : forall cx s op, height_ok cx -> Inv_ds s -> Inv_ds (fst (step cx s op)).
Proof. apply step_data_schedule. Qed.
Print Assumptions C11_step_data_schedule.

(* ... and every history *)
Theorem C11_run_data_schedule : forall tr s,
  Forall (fun co : Ctx * Op => height_ok co.1) tr -> Inv_ds s -> Inv_ds (run tr s).
Proof. apply run_data_schedule. Qed.
Print Assumptions C11_run_data_schedule.

Theorem C11_scheduled_entry_is_live : forall tr s h l d,
  Forall (fun co : Ctx * Op => height_ok co.1) tr -> Inv_ds s ->
  expdata (run tr s) !! h = Some l -> In d l -> exists m, metas (run tr s) !! d = Some m /\ expiry m = h.
Proof. apply scheduled_entry_is_live. Qed.
Print Assumptions C11_scheduled_entry_is_live.

Theorem C11_data_schedule_nonvacuous :
  Inv_ds W.s2 /\ expdata W.s2 !! 3606 = Some [W.data] /\
  Forall (fun co : Ctx * Op => height_ok co.1) History.hist_run /\
  map_to_list (expdata (run History.hist_run W.s2)) = [(3610, [W.data])].
Proof. apply data_schedule_nonvacuous. Qed.
Print Assumptions C11_data_schedule_nonvacuous.
